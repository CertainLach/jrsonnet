(** C14 — pins: every property theorem re-stated (a weakened statement does not compile), a few
    definitions pinned by computation, and non-vacuity examples. *)
From Coq Require Import List NArith Bool.
From JrV Require Import Gen.GenEscape Gen.GenYaml Gen.GenToml Gen.GenXml C05.Model C14.Model C14.Proofs C14.Properties.
Import ListNotations.
Open Scope N_scope.

Check C14_rmatch_is_lang :
  forall s r, rmatch r s = true <-> lang r s.

Check C14_yaml_plain_ok_decided :
  forall s, yaml_plain_okb s = true <-> yaml_plain_ok s.

Check C14_yaml_bare_sound :
  forall s, bare_safe s = true -> yaml_plain_ok s.

Check C14_yaml_quoted_ok :
  forall bs, Forall (fun b => b < 256) bs ->
  exists out, escape bs = Some out /\ dq_read yaml_dialect out = Some bs.

Check C14_toml_bare_sound :
  forall s, bare_allowed s = true -> toml_bare_key s.

Check C14_toml_bare_complete :
  forall s, toml_bare_key s -> bare_allowed s = true.

Check C14_toml_quoted_ok :
  forall bs, Forall (fun b => b < 256) bs -> dq_read toml_dialect (tesc bs) = Some bs.

Check C14_python_literal :
  forall bs, Forall (fun b => b < 256) bs ->
  exists out, escape bs = Some out /\ dq_read python_dialect out = Some bs.

Check C14_xml_escape_impl_is_map :
  forall s, xml_escape_impl s = Some (xml_escape s).

Check C14_xml_escape_roundtrip :
  forall s, xml_unescape (xml_escape s) = Some s /\ forallb xml_clean (xml_escape s) = true.

Check C14_yaml_rejects_exactly_functions :
  forall o v cur, ywr o cur v = None <-> has_fun v = true.

Check C14_python_rejects_exactly_functions :
  forall v, pywr v = None <-> has_fun v = true.

Check C14_toml_value_rejects_exactly_null_and_functions :
  forall o v inline cur, tval o inline cur v = None <-> has_fun v || has_null v = true.

Check C14_toml_top_must_be_object :
  forall o v, is_obj v = false -> toml_manifest o v = None.

Check C14_xml_shape_is_jsonml :
  forall v, jsonml_of v = None <-> is_jsonml v = false.

(* definitions pinned by computation; also the non-vacuity witnesses of the theorems above *)
(* "key" "a-b" "v1.2.3" "-x" are emitted bare and are plain strings *)
Check eq_refl : map bare_safe [[107;101;121]; [97;45;98]; [118;49;46;50;46;51]; [45;120]] = [true; true; true; true].
Check eq_refl : map yaml_plain_okb [[107;101;121]; [97;45;98]; [118;49;46;50;46;51]; [45;120]] = [true; true; true; true].
(* yes No ON null ~ .inf 1_000 0x1F 1e3 2001-12-14 1:30 << "" - --- are not *)
Check eq_refl : map bare_safe [[121;101;115]; [78;111]; [79;78]; [110;117;108;108]; [126]; [46;105;110;102]; [49;95;48;48;48];
                               [48;120;49;70]; [49;101;51]; [50;48;48;49;45;49;50;45;49;52]; [49;58;51;48]; [60;60]; []; [45]; [45;45;45]]
                 = [false; false; false; false; false; false; false; false; false; false; false; false; false; false; false].
Check eq_refl : map yaml_plain_okb [[121;101;115]; [78;111]; [49;95;48;48;48]; [48;120;49;70]; [49;101;51]; [50;48;48;49;45;49;50;45;49;52];
                                    [49;58;51;48]; [60;60]; [48;111;55]; [46;46;46]; [48;98;49]; [49;57;48;58;50;48;58;51;48]; [46;53]]
                 = [false; false; false; false; false; false; false; false; false; false; false; false; false].
(* on the model: 0o7 and ... quoted, 0o8 / 0o / -0o7 are not octal and stay bare; empty TOML key quoted; DEL escaped *)
Check eq_refl : map bare_safe [[48;111;55]; [48;111;49;55]; [46;46;46]; [48;111;56]; [48;111]; [45;48;111;55]] = [false; false; false; true; true; true].
Check eq_refl : tkey [] = [34;34].
Check eq_refl : tesc [97;127] = [34;97;92;117;48;48;55;102;34].
Check eq_refl : dq_read toml_dialect (tesc [97;127]) = Some [97;127].
Check eq_refl : dq_read toml_dialect (esc [97;127]) = None.
Check eq_refl : dq_read toml_dialect (tesc [97;34;10;1;195;169]) = Some [97;34;10;1;195;169].
Check eq_refl : dq_read python_dialect (esc [97;127;0;92]) = Some [97;127;0;92].
Check eq_refl : xml_escape_impl [97;60;38;62;34;39;98] = Some [97;38;108;116;59;38;97;109;112;59;38;103;116;59;38;113;117;111;116;59;38;97;112;111;115;59;98].
Check eq_refl : xml_unescape [38;108;116;59;38;120] = None.
(* writers *)
Check eq_refl : yaml_manifest (fmt_yaml_std false false) (JObj [([97], JArr [JNum [49]; JStr [120;10;121]]); ([98], JObj [])])
                = Some [97;58;10;45;32;49;10;45;32;124;45;10;32;32;120;10;32;32;121;10;98;58;32;123;125].
Check eq_refl : toml_manifest (fmt_toml_std [32;32]) (JObj [([97], JNum [49]); ([98], JObj [([99], JArr [])])])
                = Some [97;32;61;32;49;10;10;91;98;93;10;32;32;99;32;61;32;91;93].
Check eq_refl : toml_manifest (fmt_toml_std [32;32]) (JObj [([97], JNull)]) = None.
Check eq_refl : pywr (JArr [JBool true; JNull; JStr [97]]) = Some [91;84;114;117;101;44;32;78;111;110;101;44;32;34;97;34;93].
Check eq_refl : xml_manifest true (JArr [JStr [97]; JObj [([120], JStr [60])]; JStr [38]; JArr [JStr [98]]])
                = Some [60;97;32;120;61;34;38;108;116;59;34;62;38;97;109;112;59;60;98;62;60;47;98;62;60;47;97;62].
Check eq_refl : xml_manifest true (JArr [JStr [97]; JNum [49]]) = None.
Check eq_refl : ini_manifest true (JObj [([109;97;105;110], JObj [([97], JNum [49])]); ([115;101;99;116;105;111;110;115], JObj [([115], JObj [([107], JArr [JStr [120]; JStr [121]])])])])
                = Some [97;32;61;32;49;10;91;115;93;10;107;32;61;32;120;10;107;32;61;32;121;10].
