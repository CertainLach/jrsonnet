(** C14 — the property theorems; helper lemmas are in Proofs.v, the statements are pinned again in Pins.v. *)
From Coq Require Import List NArith Bool Lia.
From JrV Require Import Gen.GenEscape Gen.GenYaml Gen.GenToml Gen.GenXml C05.Model C05.Proofs C14.Model C14.Proofs.
Import ListNotations.
Open Scope N_scope.

(** The regex matcher used by the correspondence decides exactly the SPEC language. *)
Theorem C14_rmatch_is_lang : forall s r, rmatch r s = true <-> lang r s.
Proof. exact rmatch_lang. Qed.
Print Assumptions C14_rmatch_is_lang.

Theorem C14_yaml_plain_ok_decided : forall s, yaml_plain_okb s = true <-> yaml_plain_ok s.
Proof.
  intro s. unfold yaml_plain_okb, yaml_plain_ok. rewrite andb_true_iff, forallb_forall.
  setoid_rewrite negb_rmatch. reflexivity.
Qed.
Print Assumptions C14_yaml_plain_ok_decided.

(** bare_safe is sound for EVERY byte string: what it lets through unquoted is a plain scalar, not a
    document marker, that no YAML 1.2 core-schema or YAML 1.1 resolver reads as a non-string.
    (Before /repo 84b9e77 and 5a5f603 it let `0o7` and `...` through.) *)
Theorem C14_yaml_bare_sound : forall s, bare_safe s = true -> yaml_plain_ok s.
Proof.
  intros s H. apply bare_safe_inv in H.
  split; [apply bare_plain_syntax; assumption | apply bare_no_resolver; assumption].
Qed.
Print Assumptions C14_yaml_bare_sound.

(** A JSON-escaped key or string is a YAML double-quoted scalar for the same bytes. *)
Theorem C14_yaml_quoted_ok : forall bs, Forall (fun b => b < 256) bs ->
  exists out, escape bs = Some out /\ dq_read yaml_dialect out = Some bs.
Proof. exact (dq_read_escape _ yaml_table). Qed.
Print Assumptions C14_yaml_quoted_ok.

(** TOML keys: bare_allowed accepts exactly the TOML unquoted keys (the empty key is quoted since
    /repo 77d920f). *)
Theorem C14_toml_bare_sound : forall s, bare_allowed s = true -> toml_bare_key s.
Proof.
  intros s H. unfold bare_allowed in H. apply andb_true_iff in H as [Hn H].
  split; [intros ->; discriminate|]. rewrite all_in_forall in H.
  apply forallb_forall. intros x Hx. apply toml_bare_chars, H, Hx.
Qed.
Print Assumptions C14_toml_bare_sound.

Theorem C14_toml_bare_complete : forall s, toml_bare_key s -> bare_allowed s = true.
Proof.
  intros s [Hn H]. unfold bare_allowed. apply andb_true_iff. split; [destruct s; [congruence | reflexivity]|].
  apply all_in_forall. intros x Hx. rewrite forallb_forall in H. specialize (H x Hx).
  assert (B : x < 256) by (unfold toml_key_char in H; b2p; lia).
  apply toml_key_chars in B. rewrite H in B. exact B.
Qed.
Print Assumptions C14_toml_bare_complete.

(** What escape_string_toml_buf writes (JSON escaping, then U+007F replaced by its \u escape, both read
    from the source) is a TOML basic string for the same bytes, for EVERY byte string. *)
Theorem C14_toml_quoted_ok : forall bs, Forall (fun b => b < 256) bs -> dq_read toml_dialect (tesc bs) = Some bs.
Proof.
  intros bs F. unfold tesc, esc. destruct (existsb (fun c => c =? toml_replaced) bs) eqn:E.
  - rewrite trepl_escape_ref. apply (dq_read_quoted _ _ _ toml_table bs F). reflexivity.
  - apply (dq_read_quoted _ _ _ toml_table_json bs F). intros b Hb.
    destruct (toml_bad b) eqn:Eb; [|reflexivity].
    rewrite <- E. symmetry. apply existsb_exists. exists b. auto.
Qed.
Print Assumptions C14_toml_quoted_ok.

(** JSON escaping of s is a Python 3 string literal for s. *)
Theorem C14_python_literal : forall bs, Forall (fun b => b < 256) bs ->
  exists out, escape bs = Some out /\ dq_read python_dialect out = Some bs.
Proof. exact (dq_read_escape _ python_table). Qed.
Print Assumptions C14_python_literal.

(** XML: the search-and-flush loop is a per-byte map; unescaping gives the input back, and the output has
    no raw `<`, `>`, quote or apostrophe. *)
Theorem C14_xml_escape_impl_is_map : forall s, xml_escape_impl s = Some (xml_escape s).
Proof.
  intro s. unfold xml_escape_impl. destruct s as [|b r]; [reflexivity|]. cbn [is_nil].
  rewrite xml_loop_spec; [reflexivity | intros _; split; reflexivity | reflexivity].
Qed.
Print Assumptions C14_xml_escape_impl_is_map.

Theorem C14_xml_escape_roundtrip :
  forall s, xml_unescape (xml_escape s) = Some s /\ forallb xml_clean (xml_escape s) = true.
Proof.
  induction s as [|b s [IH1 IH2]]; [split; reflexivity|]. destruct (xml_esc1_ok b) as [R C].
  change (xml_escape (b :: s)) with (xml_esc1 b ++ xml_escape s).
  rewrite R, IH1, forallb_app, C, IH2. split; reflexivity.
Qed.
Print Assumptions C14_xml_escape_roundtrip.

Theorem C14_yaml_rejects_exactly_functions : forall o v cur, ywr o cur v = None <-> has_fun v = true.
Proof.
  intros o. induction v using jval_ind2; intro cur; cbn [ywr has_fun]; try (split; discriminate).
  - destruct b; split; discriminate.
  - apply some_map_none, omap_none. eapply Forall_impl; [|exact H]. intros x Hx. apply some_map_none, Hx.
  - apply some_map_none, omap_none. eapply Forall_impl; [|exact H]. intros [k x] Hx. apply some_map_none, Hx.
  - split; reflexivity.
Qed.
Print Assumptions C14_yaml_rejects_exactly_functions.

Theorem C14_python_rejects_exactly_functions : forall v, pywr v = None <-> has_fun v = true.
Proof.
  induction v using jval_ind2; cbn [pywr has_fun]; try (split; discriminate).
  - destruct b; split; discriminate.
  - apply some_map_none, omap_none. exact H.
  - apply some_map_none, omap_none. eapply Forall_impl; [|exact H]. intros [k x] Hx. apply some_map_none, Hx.
  - split; reflexivity.
Qed.
Print Assumptions C14_python_rejects_exactly_functions.

Theorem C14_toml_value_rejects_exactly_null_and_functions :
  forall o v inline cur, tval o inline cur v = None <-> has_fun v || has_null v = true.
Proof.
  intros o. induction v using jval_ind2; intros inline cur; cbn [tval has_fun has_null]; try (split; discriminate).
  - split; reflexivity.
  - destruct b; split; discriminate.
  - rewrite <- existsb_orb. apply some_map_none, omap_none. eapply Forall_impl; [|exact H]. intros x Hx. apply Hx.
  - rewrite <- existsb_orb. apply some_map_none, omap_none. eapply Forall_impl; [|exact H].
    intros [k x] Hx. apply some_map_none, Hx.
  - split; reflexivity.
Qed.
Print Assumptions C14_toml_value_rejects_exactly_null_and_functions.

Theorem C14_toml_top_must_be_object : forall o v, is_obj v = false -> toml_manifest o v = None.
Proof. intros o v H. destruct v; try reflexivity. discriminate. Qed.
Print Assumptions C14_toml_top_must_be_object.

Theorem C14_xml_shape_is_jsonml : forall v, jsonml_of v = None <-> is_jsonml v = false.
Proof.
  assert (KIDS : forall kids, Forall (fun v => jsonml_of v = None <-> is_jsonml v = false) kids ->
                 (omap jsonml_of kids = None <-> forallb is_jsonml kids = false)).
  { intros kids F. rewrite forallb_false. apply omap_none. eapply Forall_impl; [|exact F].
    intros x Hx. rewrite negb_true_iff. exact Hx. }
  induction v using jval_ind2; cbn [jsonml_of is_jsonml]; try (split; reflexivity); try (split; discriminate).
  (* an array: both sides turn down anything but a string at its head *)
  destruct xs as [|[] rest]; try (split; reflexivity). apply Forall_inv_tail in H.
  destruct rest as [|x1 kids]; [split; discriminate|].
  (* an object in second place is the attributes; the children are [kids], else [x1 :: kids] *)
  destruct x1; apply some_map_none; try (apply KIDS; exact H).
  apply KIDS. exact (Forall_inv_tail H).
Qed.
Print Assumptions C14_xml_shape_is_jsonml.
