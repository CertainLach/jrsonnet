(** C14 — lemmas for the property theorems: the derivative matcher decides [lang]; static analyses of a
    regex, evaluated on each YAML resolver, show that an arm of [bare_safe] turns its words down; table
    conditions decided by evaluation make what the escapers write read back. *)
From Coq Require Import List NArith Bool Arith Lia.
From JrV Require Import Gen.GenEscape Gen.GenYaml Gen.GenToml Gen.GenXml C05.Model C05.Proofs C14.Model.
Import ListNotations.
Open Scope N_scope.

Lemma lang_void : forall s, ~ lang Void s.
Proof. intros s H. inversion H. Qed.

Lemma lang_eps_iff : forall s, lang Eps s <-> s = [].
Proof. intro s. split; [inversion 1; reflexivity | intros ->; constructor]. Qed.

Lemma lang_cls_iff : forall c s, lang (Cls c) s <-> exists b, s = [b] /\ in_class c b = true.
Proof. intros c s. split; [inversion 1; eauto | intros (b & -> & H); constructor; exact H]. Qed.

Lemma lang_cat_iff : forall a b s, lang (Cat a b) s <-> exists s1 s2, s = s1 ++ s2 /\ lang a s1 /\ lang b s2.
Proof. intros a b s. split; [inversion 1; eauto | intros (s1 & s2 & -> & H1 & H2); constructor; assumption]. Qed.

Lemma lang_alt_iff : forall a b s, lang (Alt a b) s <-> lang a s \/ lang b s.
Proof. intros a b s. split; [inversion 1; auto | intros [H|H]; [apply LAltL | apply LAltR]; exact H]. Qed.

Lemma nullable_lang : forall r, nullable r = true <-> lang r [].
Proof.
  induction r; cbn [nullable].
  - split; [discriminate | intro H; destruct (lang_void _ H)].
  - rewrite lang_eps_iff. split; reflexivity.
  - rewrite lang_cls_iff. split; [discriminate | intros (b & E & _); discriminate].
  - rewrite andb_true_iff, IHr1, IHr2, lang_cat_iff. split.
    + intros [H1 H2]. exists [], []. auto.
    + intros (s1 & s2 & E & H1 & H2). symmetry in E. apply app_eq_nil in E as [-> ->]. auto.
  - rewrite orb_true_iff, IHr1, IHr2, lang_alt_iff. reflexivity.
  - split; [constructor | reflexivity].
Qed.

Lemma cat'_lang : forall a b s, lang (cat' a b) s <-> lang (Cat a b) s.
Proof.
  intros a b s. destruct a; cbn [cat']; try reflexivity.
  rewrite lang_cat_iff. split; [intro H; destruct (lang_void _ H) | intros (s1 & _ & _ & H & _); destruct (lang_void _ H)].
Qed.

Lemma alt'_lang : forall a b s, lang (alt' a b) s <-> lang (Alt a b) s.
Proof.
  intros a b s. pose proof (lang_void s) as V.
  destruct a; [cbn [alt']; rewrite lang_alt_iff; tauto | ..];
    (destruct b; [cbn [alt']; rewrite !lang_alt_iff; tauto | reflexivity ..]).
Qed.

Lemma lang_star_cons : forall a c s, lang (Star a) (c :: s) <->
  exists s1 s2, s = s1 ++ s2 /\ lang a (c :: s1) /\ lang (Star a) s2.
Proof.
  intros a c s. split.
  - intro H. remember (Star a) as r eqn:Er. remember (c :: s) as w eqn:Ew.
    revert Er Ew. induction H; intros Er Ew; try discriminate.
    injection Er as ->. destruct s0 as [|x s'].
    + apply IHlang2; [reflexivity | exact Ew].
    + injection Ew as -> <-. eauto.
  - intros (s1 & s2 & -> & H1 & H2). apply (LStarS a (c :: s1) s2 H1 H2).
Qed.

Lemma lang_cat_cons : forall a b c s, lang (Cat a b) (c :: s) <->
  (exists s1 s2, s = s1 ++ s2 /\ lang a (c :: s1) /\ lang b s2) \/ (lang a [] /\ lang b (c :: s)).
Proof.
  intros a b c s. rewrite lang_cat_iff. split.
  - intros ([|x s1] & s2 & E & L1 & L2).
    + cbn [app] in E. subst s2. auto.
    + injection E as <- ->. left. eauto.
  - intros [(s1 & s2 & -> & H1 & H2) | [H1 H2]].
    + exists (c :: s1), s2. auto.
    + exists [], (c :: s). auto.
Qed.

Lemma deriv_lang : forall r c s, lang (deriv c r) s <-> lang r (c :: s).
Proof.
  induction r; intros c0 s; cbn [deriv].
  - split; intro H; destruct (lang_void _ H).
  - rewrite lang_eps_iff. split; [intro H; destruct (lang_void _ H) | discriminate].
  - rewrite lang_cls_iff. destruct (in_class c c0) eqn:E.
    + rewrite lang_eps_iff. split; [intros ->; eauto | intros (b & [= _ ->] & _); reflexivity].
    + split; [intro H; destruct (lang_void _ H) | intros (b & [= -> _] & Hb); congruence].
  - rewrite lang_cat_cons, <- nullable_lang, <- IHr2. destruct (nullable r1).
    + rewrite alt'_lang, lang_alt_iff, cat'_lang, lang_cat_iff. setoid_rewrite IHr1. tauto.
    + rewrite cat'_lang, lang_cat_iff. setoid_rewrite IHr1. intuition discriminate.
  - rewrite alt'_lang, !lang_alt_iff, IHr1, IHr2. reflexivity.
  - rewrite cat'_lang, lang_cat_iff, lang_star_cons. setoid_rewrite IHr. reflexivity.
Qed.

Lemma rmatch_lang : forall s r, rmatch r s = true <-> lang r s.
Proof.
  induction s as [|c s IH]; intro r; cbn [rmatch].
  - apply nullable_lang.
  - rewrite IH. apply deriv_lang.
Qed.

Lemma in_class_app : forall a b x, in_class (a ++ b) x = in_class a x || in_class b x.
Proof. intros. unfold in_class. apply existsb_app. Qed.

Lemma in_class_single : forall c b, in_class [(c, c)] b = (b =? c).
Proof.
  intros c b. unfold in_class. cbn. rewrite orb_false_r. destruct (N.eqb_spec b c) as [->|Hn].
  - rewrite N.leb_refl. reflexivity.
  - apply andb_false_iff. rewrite !N.leb_gt. lia.
Qed.

Lemma all_in_forall : forall c s, all_in c s = true <-> forall x, In x s -> in_class c x = true.
Proof. intros. unfold all_in. apply forallb_forall. Qed.

Fixpoint alph (r : re) : list (N * N) :=
  match r with
  | Void | Eps => []
  | Cls c => c
  | Cat a b | Alt a b => alph a ++ alph b
  | Star a => alph a
  end.

Lemma lang_alph : forall r s, lang r s -> forall x, In x s -> in_class (alph r) x = true.
Proof.
  induction 1; cbn [alph]; intros x Hx; rewrite ?in_class_app.
  - destruct Hx.
  - destruct Hx as [<-|[]]. assumption.
  - apply in_app_or in Hx as [Hx|Hx]; [rewrite IHlang1 | rewrite IHlang2, orb_true_r]; auto.
  - rewrite IHlang; auto.
  - rewrite IHlang, orb_true_r; auto.
  - destruct Hx.
  - apply in_app_or in Hx as [Hx|Hx]; auto.
Qed.

(** classes compared range by range: where two classes meet; whether one lies within another *)
Definition meet (c q : list (N * N)) : list (N * N) :=
  flat_map (fun r1 => map (fun r2 => (N.max (fst r1) (fst r2), N.min (snd r1) (snd r2))) q) c.

Definition within (c d : list (N * N)) : bool :=
  forallb (fun r => (snd r <? fst r) || existsb (fun r' => (fst r' <=? fst r) && (snd r <=? snd r')) d) c.

Lemma in_class_meet : forall c q x, in_class c x = true -> in_class q x = true -> in_class (meet c q) x = true.
Proof.
  unfold in_class, meet. intros c q x H1 H2.
  apply existsb_exists in H1 as (r1 & I1 & A1). apply existsb_exists in H2 as (r2 & I2 & A2).
  apply existsb_exists. exists (N.max (fst r1) (fst r2), N.min (snd r1) (snd r2)). split.
  - apply in_flat_map. exists r1. split; [assumption|]. apply in_map_iff. exists r2. auto.
  - cbn [fst snd]. b2p. apply andb_true_iff. split; apply N.leb_le; lia.
Qed.

Lemma within_in : forall c d x, within c d = true -> in_class c x = true -> in_class d x = true.
Proof.
  unfold within, in_class. intros c d x W H. apply existsb_exists in H as (r & I & A).
  rewrite forallb_forall in W. specialize (W r I). apply orb_true_iff in W as [W|W]; [b2p; lia|].
  apply existsb_exists in W as (r' & I' & A'). apply existsb_exists. exists r'. split; [assumption|].
  b2p. apply andb_true_iff. split; apply N.leb_le; lia.
Qed.

Definition overlap (c q : list (N * N)) : bool := negb (within (meet c q) []).

Lemma overlap_in : forall c q x, in_class c x = true -> in_class q x = true -> overlap c q = true.
Proof.
  intros c q x H1 H2. apply negb_true_iff, not_true_iff_false. intro W.
  discriminate (within_in _ [] x W (in_class_meet _ _ _ H1 H2)).
Qed.

Definition oplus (a b : option nat) : option nat :=
  match a, b with Some x, Some y => Some (x + y)%nat | _, _ => None end.
Definition omax (a b : option nat) : option nat :=
  match a, b with Some x, Some y => Some (Nat.max x y) | _, _ => None end.

(** the most bytes of class [q] a word can contain ([None] = unbounded) *)
Fixpoint maxc (q : list (N * N)) (r : re) : option nat :=
  match r with
  | Void | Eps => Some O
  | Cls c => if overlap c q then Some 1%nat else Some O
  | Cat a b => oplus (maxc q a) (maxc q b)
  | Alt a b => omax (maxc q a) (maxc q b)
  | Star a => match maxc q a with Some O => Some O | _ => None end
  end.

Definition cnt (q : list (N * N)) (s : bytes) : nat := length (filter (in_class q) s).

Lemma cnt_app : forall q s t, cnt q (s ++ t) = (cnt q s + cnt q t)%nat.
Proof. intros. unfold cnt. rewrite filter_app, app_length. reflexivity. Qed.

Definition le_opt (n : nat) (o : option nat) : Prop := match o with Some m => (n <= m)%nat | None => True end.

Lemma lang_maxc : forall q r s, lang r s -> le_opt (cnt q s) (maxc q r).
Proof.
  intros q r s H. induction H; cbn [maxc]; rewrite ?cnt_app.
  - apply le_n.
  - unfold cnt. cbn [filter]. destruct (in_class q b) eqn:E.
    + rewrite (overlap_in _ _ _ H E). apply le_n.
    + destruct (overlap c q); cbn; lia.
  - destruct (maxc q a), (maxc q b); cbn [oplus le_opt] in *; lia.
  - destruct (maxc q a), (maxc q b); cbn [omax le_opt] in *; lia.
  - destruct (maxc q a), (maxc q b); cbn [omax le_opt] in *; lia.
  - destruct (maxc q a) as [[|x]|]; cbn; lia.
  - cbn [maxc] in IHlang2. destruct (maxc q a) as [[|x]|]; cbn [le_opt] in *; lia.
Qed.

Fixpoint minlen (r : re) : nat :=
  match r with
  | Void | Eps => O
  | Cls _ => 1%nat
  | Cat a b => (minlen a + minlen b)%nat
  | Alt a b => Nat.min (minlen a) (minlen b)
  | Star _ => O
  end.

Lemma lang_minlen : forall r s, lang r s -> (minlen r <= length s)%nat.
Proof.
  induction 1; cbn [minlen length]; try rewrite app_length; lia.
Qed.

Fixpoint musthave (c : N) (r : re) : bool :=
  match r with
  | Void => true
  | Eps => false
  | Cls cl => match cl with [(lo, hi)] => (lo =? c) && (hi =? c) | _ => false end
  | Cat a b => musthave c a || musthave c b
  | Alt a b => musthave c a && musthave c b
  | Star _ => false
  end.

Lemma lang_musthave : forall c r s, lang r s -> musthave c r = true -> In c s.
Proof.
  intros c r s H. induction H; cbn [musthave]; intro M; try discriminate.
  - destruct c0 as [|[lo hi] [|? ?]]; try discriminate. b2p. subst.
    rewrite in_class_single in H. b2p. left. assumption.
  - apply in_or_app. b2p; auto.
  - b2p. auto.
  - b2p. auto.
Qed.

Lemma lang_lit : forall p s, lang (Lit p) s -> s = p.
Proof.
  induction p as [|c p IH]; intros s H; cbn [Lit] in H.
  - apply lang_eps_iff in H. assumption.
  - apply lang_cat_iff in H as (s1 & s2 & -> & L1 & L2).
    apply lang_cls_iff in L1 as (b & -> & Hb). rewrite in_class_single in Hb. b2p. subst b.
    cbn [app]. f_equal. apply IH. assumption.
Qed.

Lemma lang_alts : forall rs s, lang (Alts rs) s -> exists r, In r rs /\ lang r s.
Proof.
  induction rs as [|r rs IH]; intros s H.
  - destruct (lang_void _ H).
  - destruct rs as [|r' rs]; [exists r; cbn; auto|].
    change (lang (Alt r (Alts (r' :: rs))) s) in H. apply lang_alt_iff in H as [H|H].
    + exists r. cbn; auto.
    + destruct (IH _ H) as (x & I & L). exists x. split; [right|]; assumption.
Qed.

Lemma lang_words : forall ws s, lang (Words ws) s -> In s ws.
Proof.
  intros ws s H. apply lang_alts in H as (r & I & L).
  apply in_map_iff in I as (w & <- & I). apply lang_lit in L. subst. assumption.
Qed.

Lemma starts_with_app : forall p t, starts_with p (p ++ t) = true.
Proof. induction p; intro t; cbn; [reflexivity|]. rewrite N.eqb_refl. apply IHp. Qed.

Lemma lit_prefix : forall p x s, lang (Cat (Lit p) x) s -> starts_with p s = true.
Proof.
  intros p x s H. apply lang_cat_iff in H as (s1 & s2 & -> & L1 & _).
  apply lang_lit in L1. subst. apply starts_with_app.
Qed.

Lemma signed_prefix : forall p x s, lang (Cat (Opt sign) (Cat (Lit p) x)) s -> ~ In 43 s ->
  starts_with p s || starts_with (45 :: p) s = true.
Proof.
  intros p x s H Hp. apply lang_cat_iff in H as (s1 & s2 & -> & L1 & L2). apply lit_prefix in L2.
  apply lang_alt_iff in L1 as [L1|L1].
  - apply lang_eps_iff in L1. subst. cbn [app]. rewrite L2. reflexivity.
  - apply lang_cls_iff in L1 as (b & -> & Hb).
    change (in_class ([(45, 45)] ++ [(43, 43)]) b = true) in Hb.
    rewrite in_class_app, !in_class_single in Hb. b2p; subst b.
    + cbn [app starts_with]. rewrite L2. apply orb_true_r.
    + destruct Hp. left. reflexivity.
Qed.

(** [n] consecutive numbers from [lo], counted up in binary: facts about bytes are evaluated over such lists *)
Fixpoint upto (n : nat) (lo : N) : list N :=
  match n with O => [] | S k => lo :: upto k (N.succ lo) end.

Lemma in_upto : forall n lo x, In x (upto n lo) <-> lo <= x < lo + N.of_nat n.
Proof.
  induction n as [|n IH]; intros lo x; cbn [upto In]; [lia|]. rewrite IH. lia.
Qed.

Lemma byte_sweep : forall P : N -> bool, forallb P (upto 256 0) = true -> forall x, x < 256 -> P x = true.
Proof. intros P H x Hx. rewrite forallb_forall in H. apply H, in_upto. lia. Qed.

Lemma seq_upto : forall n x, map N.of_nat (seq x n) = upto n (N.of_nat x).
Proof.
  induction n as [|n IH]; intro x; [reflexivity|]. cbn [seq map upto]. rewrite IH, Nat2N.inj_succ. reflexivity.
Qed.

Definition class_members (c : list (N * N)) : list N :=
  flat_map (fun r => upto (N.to_nat (N.succ (snd r) - fst r)) (fst r)) c.

Lemma class_forall : forall c (P : N -> bool), forallb P (class_members c) = true ->
  forall x, in_class c x = true -> P x = true.
Proof.
  intros c P H x Hx. rewrite forallb_forall in H. apply H.
  apply existsb_exists in Hx as (r & I & Hx). b2p.
  apply in_flat_map. exists r. split; [assumption | apply in_upto; lia].
Qed.

(** (alph r /\ safe) is included in [d] *)
Definition sub_under_safe (r : re) (d : list (N * N)) : bool := within (meet (alph r) yaml_cls_safe) d.

Lemma count_cnt : forall c s, count c s = cnt [(c, c)] s.
Proof.
  intros c s. unfold count, cnt. f_equal. apply filter_ext. intro v. symmetry. apply in_class_single.
Qed.

Lemma count_u_e : forall s, count_u 101 s = cnt [(101, 101); (69, 69)] s.
Proof.
  intro s. unfold count_u, cnt. f_equal. apply filter_ext. intro v.
  change [(101, 101); (69, 69)] with ([(101, 101)] ++ [(69, 69)]).
  rewrite in_class_app, !in_class_single. reflexivity.
Qed.

Record bare_facts (s : bytes) : Prop := mkBF {
  bf_safe : all_in yaml_cls_safe s = true;
  bf_res : is_reserved s = false;
  bf_date : c_date s = false;
  bf_int : c_int s = false;
  bf_bin : c_bin s = false;
  bf_oct : c_oct s = false;
  bf_float : c_float s = false;
  bf_hex : c_hex s = false }.

Lemma bare_safe_inv : forall s, bare_safe s = true -> bare_facts s.
Proof.
  intros s H. unfold bare_safe in H.
  destruct (all_in yaml_cls_safe s) eqn:E1; [|discriminate]. cbn [negb] in H.
  destruct (is_reserved s) eqn:E2; [discriminate|].
  destruct (c_date s) eqn:E3; [discriminate|].
  destruct (c_int s) eqn:E4; [discriminate|].
  destruct (c_bin s) eqn:E5; [discriminate|].
  destruct (c_oct s) eqn:E6; [discriminate|].
  destruct (c_float s) eqn:E7; [discriminate|].
  destruct (c_hex s) eqn:E8; [discriminate|].
  constructor; assumption.
Qed.

Lemma lang_all_in : forall r d s, sub_under_safe r d = true -> bare_facts s -> lang r s -> all_in d s = true.
Proof.
  intros r d s S B L. pose proof (bf_safe s B) as A. rewrite all_in_forall in *. intros x Hx.
  exact (within_in _ _ x S (in_class_meet _ _ x (lang_alph _ _ L x Hx) (A x Hx))).
Qed.

Lemma safe_no : forall c s, in_class yaml_cls_safe c = false -> all_in yaml_cls_safe s = true -> ~ In c s.
Proof. intros c s F A I. rewrite all_in_forall in A. specialize (A c I). congruence. Qed.

Definition at_most (o : option nat) (n : nat) : bool :=
  match o with Some m => (m <=? n)%nat | None => false end.

Lemma lang_cnt : forall q r s n, lang r s -> at_most (maxc q r) n = true -> (cnt q s <= n)%nat.
Proof.
  intros q r s n L M. pose proof (lang_maxc q _ _ L) as K. destruct (maxc q r) as [m|]; [|discriminate].
  apply Nat.leb_le in M. cbn [le_opt] in K. lia.
Qed.

Lemma lang_count : forall c r s n, lang r s -> at_most (maxc [(c, c)] r) n = true -> (count c s <= n)%nat.
Proof. intros c r s n. rewrite count_cnt. apply lang_cnt. Qed.

(** kill lemmas, one for each arm of [bare_safe], with its thresholds: a resolver regex with the stated
    (computed) shape cannot match a bare_safe string; the prefix for the binary and hexadecimal arms comes
    from the caller *)
Lemma kill_char : forall r c s, musthave c r = true -> in_class yaml_cls_safe c = false ->
  bare_facts s -> ~ lang r s.
Proof. intros r c s M F B L. eapply safe_no; [exact F | apply B | eapply lang_musthave; eassumption]. Qed.

Lemma kill_int : forall r s, sub_under_safe r yaml_cls_int = true -> at_most (maxc [(45, 45)] r) 1 = true ->
  bare_facts s -> ~ lang r s.
Proof.
  intros r s S M B L. pose proof (bf_int s B) as K. unfold c_int in K.
  rewrite (lang_all_in r _ s S B L) in K. cbn [andb] in K. apply Nat.ltb_ge in K.
  pose proof (lang_count _ _ _ _ L M). lia.
Qed.

Lemma kill_date : forall r s, sub_under_safe r yaml_cls_date = true -> sub_under_safe r yaml_cls_int = true ->
  at_most (maxc [(45, 45)] r) 2 = true -> bare_facts s -> ~ lang r s.
Proof.
  intros r s S1 S2 M B L. pose proof (bf_int s B) as K. pose proof (bf_date s B) as D. unfold c_int in K. unfold c_date in D.
  rewrite (lang_all_in r _ s S2 B L) in K. rewrite (lang_all_in r _ s S1 B L) in D.
  cbn [andb] in K, D. apply Nat.ltb_ge in K. apply Nat.eqb_neq in D. pose proof (lang_count _ _ _ _ L M). lia.
Qed.

Lemma kill_float : forall r s, sub_under_safe r yaml_cls_float = true ->
  at_most (maxc [(101, 101); (69, 69)] r) 1 = true -> at_most (maxc [(45, 45)] r) 2 = true ->
  at_most (maxc [(46, 46)] r) 1 = true -> bare_facts s -> ~ lang r s.
Proof.
  intros r s S Me Mm Md B L. pose proof (bf_float s B) as K. unfold c_float in K.
  rewrite (lang_all_in r _ s S B L), count_u_e in K.
  pose proof (lang_cnt _ _ _ _ L Me). pose proof (lang_count _ _ _ _ L Mm). pose proof (lang_count _ _ _ _ L Md).
  rewrite (proj2 (Nat.ltb_lt _ 2)), (proj2 (Nat.ltb_lt _ 3)), (proj2 (Nat.leb_le _ 1)) in K by lia. discriminate.
Qed.

(** `+` is not a safe byte *)
Lemma no_plus : forall s, bare_facts s -> ~ In 43 s.
Proof. intros s B. exact (safe_no 43 s eq_refl (bf_safe s B)). Qed.

Lemma kill_bin : forall r s, sub_under_safe r yaml_cls_bin = true -> (2 <? minlen r)%nat = true ->
  bare_facts s -> lang r s -> starts_with [48; 98] s || starts_with [45; 48; 98] s = true -> False.
Proof.
  intros r s S Hm B L P. pose proof (bf_bin s B) as K. unfold c_bin in K.
  rewrite (lang_all_in r _ s S B L), P in K.
  apply Nat.ltb_ge in K. apply Nat.ltb_lt in Hm. pose proof (lang_minlen _ _ L). lia.
Qed.

Lemma kill_hex : forall r s, sub_under_safe r yaml_cls_hex = true -> (3 <=? minlen r)%nat = true ->
  at_most (maxc [(45, 45)] r) 1 = true -> bare_facts s -> lang r s ->
  starts_with [48; 120] s || starts_with [45; 48; 120] s = true -> False.
Proof.
  intros r s S Hm M B L P. pose proof (bf_hex s B) as K. unfold c_hex in K.
  rewrite (lang_all_in r _ s S B L), orb_comm, P in K.
  apply Nat.leb_le in Hm. pose proof (lang_minlen _ _ L). pose proof (lang_count _ _ _ _ L M).
  rewrite (proj2 (Nat.leb_le 3 _)), (proj2 (Nat.ltb_lt _ 2)) in K by lia. discriminate.
Qed.

(** YAML 1.2 octal `0o[0-7]+` *)
Lemma kill_oct : forall s, bare_facts s -> ~ lang re_oct12 s.
Proof.
  intros s B L. pose proof (lang_minlen _ _ L) as Hl.
  apply lang_cat_iff in L as (s1 & s2 & -> & L1 & L2). apply lang_lit in L1. subst s1.
  assert (A : all_in yaml_cls_oct s2 = true).
  { apply all_in_forall. intros x Hx. apply (within_in (alph (Plus (Cls [(48, 55)])))); [reflexivity|].
    exact (lang_alph _ _ L2 x Hx). }
  pose proof (bf_oct _ B) as K. unfold c_oct in K. cbn [app skipn starts_with length] in K.
  rewrite !N.eqb_refl, A, !andb_true_r in K. apply Nat.ltb_ge in K. cbn in Hl. lia.
Qed.

Definition word_handled (w : bytes) : bool := negb (all_in yaml_cls_safe w) || is_reserved w.

Lemma words_handled : forallb word_handled yaml_words = true.
Proof. vm_compute. reflexivity. Qed.

Lemma kill_words : forall s, bare_facts s -> ~ lang (Words yaml_words) s.
Proof.
  intros s B L. apply lang_words in L. pose proof words_handled as H. rewrite forallb_forall in H.
  specialize (H s L). unfold word_handled in H. rewrite (bf_safe s B), (bf_res s B) in H. discriminate.
Qed.

(** closed side conditions: the analyses evaluated on the resolver at hand *)
Ltac computed := vm_compute; reflexivity.

Lemma bare_no_resolver : forall s, bare_facts s ->
  forall r, In r yaml_resolvers -> ~ lang r s.
Proof.
  intros s B r I. unfold yaml_resolvers in I. cbn [In] in I.
  destruct I as [<-|[<-|[<-|[<-|[<-|[<-|[<-|[<-|[<-|[<-|[<-|[<-|[<-|[<-|[]]]]]]]]]]]]]]].
  - apply kill_words. (* Words yaml_words *) assumption.
  - apply (kill_int re_int12); [computed | computed | assumption].
  - apply kill_oct. (* re_oct12 *) assumption.
  - intro L. apply (kill_hex re_hex12 s); [computed | computed | computed | assumption | assumption |].
    rewrite (lit_prefix _ _ _ L). reflexivity.
  - apply (kill_float re_float12); [computed | computed | computed | computed | assumption].
  - intro L. apply (kill_bin re_bin11 s); [computed | computed | assumption | assumption |].
    exact (signed_prefix _ _ _ L (no_plus s B)).
  - apply (kill_int re_oct11); [computed | computed | assumption].
  - apply (kill_int re_dec11); [computed | computed | assumption].
  - intro L. apply (kill_hex re_hex11 s); [computed | computed | computed | assumption | assumption |].
    exact (signed_prefix _ _ _ L (no_plus s B)).
  - apply (kill_char re_sexa_int11 58); [computed | computed | assumption].
  - apply (kill_float re_float11); [computed | computed | computed | computed | assumption].
  - apply (kill_char re_sexa_float11 58); [computed | computed | assumption].
  - apply (kill_date re_date11); [computed | computed | computed | assumption].
  - apply (kill_char re_timestamp11 58); [computed | computed | assumption].
Qed.

Lemma safe_parts : forall x, in_class yaml_cls_safe x = true ->
  ns_char x = true /\ flow_ind x = false /\ (c_indicator x = false \/ x = 45) /\ x <> 58.
Proof.
  intros x H.
  apply (class_forall _ (fun x => ns_char x && negb (flow_ind x) && (negb (c_indicator x) || (x =? 45)) && negb (x =? 58)))
    in H; [|vm_compute; reflexivity].
  cbv beta in H. b2p; auto.
Qed.

Lemma colon_ok_no_colon : forall s, ~ In 58 s -> colon_ok s = true.
Proof.
  induction s as [|b s IH]; intro H; [reflexivity|]. cbn [colon_ok].
  destruct (N.eqb_spec b 58) as [->|_]; [destruct H; left; reflexivity|].
  apply IH. intro K. apply H. right. assumption.
Qed.

Lemma beq_eq : forall a b, beq a b = true <-> a = b.
Proof.
  induction a as [|x a IH]; destruct b as [|y b]; cbn [beq]; try (split; [discriminate | discriminate]).
  - split; reflexivity.
  - rewrite andb_true_iff, N.eqb_eq, IH. split; [intros [-> ->]; reflexivity | intros [= -> ->]; auto].
Qed.

Lemma bare_not_reserved : forall s w, bare_facts s -> is_reserved w = true -> beq s w = false.
Proof.
  intros s w B R. destruct (beq s w) eqn:E; [|reflexivity].
  apply beq_eq in E. subst w. rewrite (bf_res _ B) in R. discriminate.
Qed.

Lemma bare_plain_syntax : forall s, bare_facts s -> plain_syntax s = true.
Proof.
  intros s B.
  assert (F := fun x Hx => safe_parts x (proj1 (all_in_forall _ _) (bf_safe s B) x Hx)).
  unfold plain_syntax, doc_marker. rewrite !(bare_not_reserved s _ B) by reflexivity.
  repeat (apply andb_true_iff; split); [| | |reflexivity].
  - pose proof (bare_not_reserved s [] B eq_refl) as E0. pose proof (bare_not_reserved s [45] B eq_refl) as E1.
    destruct s as [|b r]; [discriminate|].
    cbn [plain_first]. destruct (F b (or_introl eq_refl)) as (_ & _ & [Hi | ->] & _); [rewrite Hi; reflexivity|].
    destruct r as [|c r']; [discriminate|].
    destruct (F c (or_intror (or_introl eq_refl))) as (Hn & Hf & _ & _). rewrite Hn, Hf. apply orb_true_r.
  - apply forallb_forall. intros x Hx. destruct (F x Hx) as (Hn & Hf & _ & _). rewrite Hn, Hf. reflexivity.
  - apply colon_ok_no_colon. intro K. destruct (F _ K) as (_ & _ & _ & Hc). apply Hc. reflexivity.
Qed.

Lemma negb_rmatch : forall r s, negb (rmatch r s) = true <-> ~ lang r s.
Proof. intros r s. rewrite negb_true_iff, <- rmatch_lang. symmetry. apply not_true_iff_false. Qed.

Lemma toml_bare_chars : forall x, in_class toml_cls_bare x = true -> toml_key_char x = true.
Proof. apply class_forall. vm_compute. reflexivity. Qed.

Lemma toml_key_chars : forall x, x < 256 -> negb (toml_key_char x) || in_class toml_cls_bare x = true.
Proof. apply (byte_sweep (fun x => negb (toml_key_char x) || in_class toml_cls_bare x)). vm_compute. reflexivity. Qed.

Lemma dq_str_raw : forall d b r, b <> 34 -> b <> 92 -> d_raw d b = true ->
  dq_str d (b :: r) = prepend [b] (dq_str d r).
Proof.
  intros d b r H1 H2 H3. cbn [dq_str]. apply N.eqb_neq in H1, H2. rewrite H1, H2, H3. reflexivity.
Qed.

Lemma dq_str_simple : forall d e c r, (e =? 117) && d_u4 d = false -> d_simple d e = Some c ->
  dq_str d (92 :: e :: r) = prepend [c] (dq_str d r).
Proof. intros d e c r H1 H2. cbn [dq_str N.eqb Pos.eqb]. rewrite H1, H2. reflexivity. Qed.

Lemma ascii_code_point : forall cp, cp < 128 -> is_high cp || is_low cp = false /\ utf8_enc cp = [cp].
Proof.
  intros cp H. unfold is_high, is_low, utf8_enc.
  rewrite (proj2 (N.leb_gt 55296 cp)), (proj2 (N.leb_gt 56320 cp)), (proj2 (N.ltb_lt cp 128)) by lia. auto.
Qed.

Lemma dq_str_u4 : forall d h1 h2 h3 h4 cp r, d_u4 d = true -> hex4 h1 h2 h3 h4 = Some cp -> cp < 128 ->
  dq_str d (92 :: 117 :: h1 :: h2 :: h3 :: h4 :: r) = prepend [cp] (dq_str d r).
Proof.
  intros d h1 h2 h3 h4 cp r H1 H2 H3. apply ascii_code_point in H3 as [H3 H4].
  cbn [dq_str N.eqb Pos.eqb andb]. rewrite H1, H2, H3, H4. reflexivity.
Qed.

Lemma dq_seq_read : forall d sq b r, dq_seq_ok d sq b = true -> dq_str d (sq ++ r) = prepend [b] (dq_str d r).
Proof.
  intros d sq b r H. unfold dq_seq_ok in H.
  destruct sq as [|c0 [|c1 [|c2 [|c3 [|c4 [|c5 [|c6 sq]]]]]]]; try discriminate.
  - b2p. subst c0. apply dq_str_raw; assumption.
  - destruct (d_simple d c1) as [c|] eqn:Es; [|rewrite andb_false_r in H; discriminate].
    b2p. subst c0 c. apply dq_str_simple; assumption.
  - destruct (hex4 c2 c3 c4 c5) as [cp|] eqn:Eh; [|rewrite andb_false_r in H; discriminate].
    b2p. subst c0 c1 cp. apply dq_str_u4; assumption.
Qed.

(** the model's table conditions count the bytes in unary, slow to evaluate *)
Lemma dq_table_ok_upto : forall d f bad, dq_table_ok d f bad = forallb (dq_entry_ok d f bad) (upto 256 0).
Proof. intros d f bad. unfold dq_table_ok. rewrite seq_upto. reflexivity. Qed.

(** [tbl] looks an entry up through a unary index, slow for every byte: the table is walked beside a
    binary counter *)
Lemma in_combine_upto : forall (l : list N) lo x, lo <= x < lo + N.of_nat (length l) ->
  In (x, nth (N.to_nat (x - lo)) l 0) (combine (upto (length l) lo) l).
Proof.
  induction l as [|a l IH]; intros lo x H; cbn [length] in H; [lia|]. cbn [length upto combine].
  destruct (N.eq_dec lo x) as [->|Hn].
  - left. rewrite N.sub_diag. reflexivity.
  - right. replace (N.to_nat (x - lo)) with (S (N.to_nat (x - N.succ lo))) by lia. apply IH. lia.
Qed.

Lemma table_walk : forall P : N -> N -> bool,
  forallb (fun p => P (fst p) (snd p)) (combine (upto 256 0) escape_table) = true ->
  forall b, b < 256 -> P b (tbl b) = true.
Proof.
  intros P H b Hb. rewrite forallb_forall in H.
  assert (I : In (b, nth (N.to_nat (b - 0)) escape_table 0) (combine (upto 256 0) escape_table))
    by (apply (in_combine_upto escape_table 0 b); change (length escape_table) with 256%nat; lia).
  rewrite N.sub_0_r in I. exact (H _ I).
Qed.

Definition esc1_at (b e : N) : bytes :=
  if e =? 0 then [b] else match esc_seq b e with Some s => s | None => [] end.

Lemma dq_table_walk : forall d (g : bytes -> bytes) bad,
  forallb (fun p => bad (fst p) || dq_seq_ok d (g (esc1_at (fst p) (snd p))) (fst p))
          (combine (upto 256 0) escape_table) = true ->
  dq_table_ok d (fun b => g (esc1 b)) bad = true.
Proof.
  intros d g bad H. rewrite dq_table_ok_upto. apply forallb_forall. intros b Hb. apply in_upto in Hb.
  unfold dq_entry_ok. change (esc1 b) with (esc1_at b (tbl b)).
  apply (table_walk (fun b e => bad b || dq_seq_ok d (g (esc1_at b e)) b) H). lia.
Qed.

Lemma dq_table_entry : forall d f bad b, dq_table_ok d f bad = true -> b < 256 -> bad b = false ->
  dq_seq_ok d (f b) b = true.
Proof.
  intros d f bad b T Hb Hbad. rewrite dq_table_ok_upto in T. apply (byte_sweep _ T) in Hb.
  unfold dq_entry_ok in Hb. rewrite Hbad in Hb. exact Hb.
Qed.

Lemma dq_str_mapped : forall d f bad, dq_table_ok d f bad = true ->
  forall bs rest, Forall (fun b => b < 256) bs -> (forall b, In b bs -> bad b = false) ->
    dq_str d (flat_map f bs ++ 34 :: rest) = Some (bs, rest).
Proof.
  intros d f bad T. induction bs as [|b bs IH]; intros rest F Hbad; [reflexivity|].
  inversion F as [|? ? Hb F']; subst. cbn [flat_map]. rewrite <- app_assoc.
  rewrite (dq_seq_read _ _ _ _ (dq_table_entry d f bad b T Hb (Hbad b (or_introl eq_refl)))), (IH rest F'); [reflexivity|].
  intros c Hc. apply Hbad. right. exact Hc.
Qed.

Lemma dq_read_quoted : forall d f bad, dq_table_ok d f bad = true ->
  forall bs, Forall (fun b => b < 256) bs -> (forall b, In b bs -> bad b = false) ->
    dq_read d (34 :: flat_map f bs ++ [34]) = Some bs.
Proof.
  intros d f bad T bs F Hbad. unfold dq_read. change (34 =? 34) with true. cbv iota.
  rewrite (dq_str_mapped d f bad T bs [] F Hbad). reflexivity.
Qed.

Lemma dq_read_escape : forall d, dq_table_ok d esc1 no_bad = true ->
  forall bs, Forall (fun b => b < 256) bs -> exists out, escape bs = Some out /\ dq_read d out = Some bs.
Proof.
  intros d T bs F. exists (escape_ref bs). split; [apply escape_is_ref|].
  apply (dq_read_quoted d esc1 no_bad T bs F). reflexivity.
Qed.

Lemma python_table : dq_table_ok python_dialect esc1 no_bad = true.
Proof. apply (dq_table_walk _ (fun sq => sq)). vm_compute. reflexivity. Qed.
Lemma yaml_table : dq_table_ok yaml_dialect esc1 no_bad = true.
Proof. apply (dq_table_walk _ (fun sq => sq)). vm_compute. reflexivity. Qed.

(** TOML: the JSON table for strings without the replaced byte, the table after replacement for the rest *)
Lemma toml_table_json : dq_table_ok toml_dialect esc1 toml_bad = true.
Proof. apply (dq_table_walk _ (fun sq => sq)). vm_compute. reflexivity. Qed.
Lemma toml_table : dq_table_ok toml_dialect tesc1 no_bad = true.
Proof. apply (dq_table_walk _ trepl). vm_compute. reflexivity. Qed.

Lemma trepl_flat : forall bs, trepl (flat_map esc1 bs) = flat_map tesc1 bs.
Proof.
  induction bs as [|b bs IH]; [reflexivity|]. cbn [flat_map]. unfold trepl in *. rewrite flat_map_app, IH. reflexivity.
Qed.

Lemma trepl_escape_ref : forall bs, trepl (escape_ref bs) = 34 :: flat_map tesc1 bs ++ [34].
Proof.
  intro bs. unfold escape_ref. change (34 :: flat_map esc1 bs ++ [34]) with ([34] ++ flat_map esc1 bs ++ [34]).
  unfold trepl at 1. rewrite !flat_map_app. fold (trepl (flat_map esc1 bs)). rewrite trepl_flat. reflexivity.
Qed.

Lemma mem_in : forall b l, mem b l = true <-> In b l.
Proof.
  intros b l. unfold mem. rewrite existsb_exists. split.
  - intros (x & I & E). b2p. subst. assumption.
  - intro I. exists b. split; [assumption | apply N.eqb_refl].
Qed.

(** each searched byte has an entity that reads back as it; the markup bytes are all searched, so an
    unsearched byte is none of them *)
Lemma xml_searched_ok : forallb xml_entry_ok xml_searched = true.
Proof. vm_compute. reflexivity. Qed.

Lemma xml_markup_searched : forallb (fun c => mem c xml_searched) [60; 38; 62; 34; 39] = true.
Proof. vm_compute. reflexivity. Qed.

Lemma xml_entry : forall b, xml_entry_ok b = true.
Proof.
  intro b. destruct (mem b xml_searched) eqn:M.
  - pose proof xml_searched_ok as T. rewrite forallb_forall in T. apply T, mem_in, M.
  - unfold xml_entry_ok, xml_entity. rewrite M. cbn [negb andb]. apply negb_true_iff, not_true_iff_false.
    intro K. apply mem_in in K. pose proof xml_markup_searched as T. rewrite forallb_forall in T.
    rewrite (T b K) in M. discriminate.
Qed.

Lemma xml_esc1_searched : forall b, mem b xml_searched = true -> xml_entity b = Some (xml_esc1 b).
Proof.
  intros b M. pose proof (xml_entry b) as E. unfold xml_entry_ok, xml_esc1 in *.
  destruct (xml_entity b); [reflexivity|]. rewrite M in E. discriminate.
Qed.

Lemma xml_esc1_plain : forall b, mem b xml_searched = false -> xml_esc1 b = [b].
Proof. intros b M. unfold xml_esc1, xml_entity. rewrite M. reflexivity. Qed.

(** [plain]: bytes that need no escaping; until a searched byte is found nothing is written and the input
    is returned *)
Lemma xml_loop_spec : forall rest str plain out found,
  (found = false -> out = [] /\ str = plain ++ rest) -> xml_escape plain = plain ->
  xml_loop str rest plain out found = Some (out ++ plain ++ xml_escape rest).
Proof.
  induction rest as [|b r IH]; intros str plain out found Inv Hp; cbn [xml_loop].
  - cbn [xml_escape flat_map]. rewrite !app_nil_r. destruct found; [reflexivity|].
    destruct (Inv eq_refl) as [-> ->]. rewrite app_nil_r. reflexivity.
  - change (xml_escape (b :: r)) with (xml_esc1 b ++ xml_escape r). destruct (mem b xml_searched) eqn:M.
    + rewrite (xml_esc1_searched b M), IH; [|discriminate | reflexivity].
      cbn [app]. rewrite <- !app_assoc. reflexivity.
    + rewrite (xml_esc1_plain b M), IH.
      * rewrite <- !app_assoc. reflexivity.
      * intro F. destruct (Inv F) as [-> ->]. rewrite <- app_assoc. auto.
      * unfold xml_escape in *. rewrite flat_map_app, Hp. cbn [flat_map].
        rewrite (xml_esc1_plain b M). reflexivity.
Qed.

(** the output contains no raw `<`, `>`, quote or apostrophe *)
Definition xml_clean (c : N) : bool := negb (mem c [60; 62; 34; 39]).

Lemma named_entities_ok : forall p, In p named_entities ->
  (forall rest, xml_unescape ((38 :: fst p) ++ rest) = ocons (snd p) (xml_unescape rest))
  /\ forallb xml_clean (38 :: fst p) = true.
Proof.
  intros p I. unfold named_entities in I. cbn [In] in I.
  destruct I as [<-|[<-|[<-|[<-|[<-|[]]]]]]; split; reflexivity.
Qed.

Lemma xml_esc1_ok : forall b,
  (forall rest, xml_unescape (xml_esc1 b ++ rest) = ocons b (xml_unescape rest))
  /\ forallb xml_clean (xml_esc1 b) = true.
Proof.
  intro b. pose proof (xml_entry b) as E. unfold xml_entry_ok, xml_esc1 in *. destruct (xml_entity b) as [e|].
  - unfold xml_seq_ok in E. apply existsb_exists in E as (p & I & E).
    apply andb_true_iff in E as [E1 E2]. apply beq_eq in E1. apply N.eqb_eq in E2. subst e b.
    apply named_entities_ok, I.
  - apply andb_true_iff in E as [_ E]. apply negb_true_iff in E.
    assert (Hne : forall x, In x [60; 38; 62; 34; 39] -> b <> x) by (intros x I ->; apply mem_in in I; congruence).
    split.
    + intro rest. cbn [app xml_unescape].
      rewrite (proj2 (N.eqb_neq b 60)), (proj2 (N.eqb_neq b 38)) by (apply Hne; cbn; auto). reflexivity.
    + cbn [forallb]. rewrite andb_true_r. apply negb_true_iff, not_true_iff_false. intro K. apply mem_in in K.
      apply (Hne b); [cbn in *; tauto | reflexivity].
Qed.

Lemma existsb_in : forall (A : Type) (p : A -> bool) l, existsb p l = true <-> exists x, In x l /\ p x = true.
Proof. intros. apply existsb_exists. Qed.

Lemma omap_cons : forall (A B : Type) (f : A -> option B) x xs,
  omap f (x :: xs) = match f x, omap f xs with Some b, Some br => Some (b :: br) | _, _ => None end.
Proof. reflexivity. Qed.

(** a loop with `?` in its body fails exactly when the body fails on some element *)
Lemma omap_none : forall (A B : Type) (f : A -> option B) (bad : A -> bool) xs,
  Forall (fun x => f x = None <-> bad x = true) xs -> (omap f xs = None <-> existsb bad xs = true).
Proof.
  intros A B f bad xs F. induction F as [|x xs Hx _ IH]; [split; discriminate|].
  rewrite omap_cons. cbn [existsb]. rewrite orb_true_iff, <- Hx, <- IH.
  destruct (f x), (omap f xs); split; auto; try discriminate; intros [?|?]; discriminate.
Qed.

Lemma some_map_none : forall (A B : Type) (o : option A) (g : A -> B) (P : Prop),
  (o = None <-> P) -> (match o with Some a => Some (g a) | None => None end = None <-> P).
Proof. intros A B o g P H. rewrite <- H. destruct o; split; (discriminate || reflexivity). Qed.

Lemma existsb_orb : forall (A : Type) (f g : A -> bool) l,
  existsb (fun x => f x || g x) l = existsb f l || existsb g l.
Proof.
  induction l as [|a l IH]; [reflexivity|]. cbn [existsb]. rewrite IH.
  destruct (f a), (g a), (existsb f l); reflexivity.
Qed.

Lemma forallb_false : forall (A : Type) (p : A -> bool) l,
  forallb p l = false <-> existsb (fun x => negb (p x)) l = true.
Proof.
  induction l as [|a l IH]; cbn [forallb existsb]; [split; discriminate|].
  rewrite andb_false_iff, orb_true_iff, negb_true_iff, IH. reflexivity.
Qed.

