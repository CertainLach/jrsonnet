From Coq Require Import List NArith.
From JrV Require Import C19.Model C19.Comments.
Import ListNotations.
Open Scope N_scope.

Lemma ml_single_idem ind tok b :
  fmt_ml tok = Some (MLSingle b) -> b <> [] ->
  contains_nl b = false ->
  fmt_ml (render_ml ind (MLSingle b)) = Some (MLSingle b) ->
  ml_stable ind tok.
Proof. intros H _ _ H2. unfold ml_stable. rewrite H. right. exact H2. Qed.

(** "/**\n * a\n *\n * b\n */" and the same with a plain "/*" ([C20_comment_idempotent_refuted]) *)
Definition doc_blank : str :=
  [47;42;42;10; 32;42;32;97;10; 32;42;10; 32;42;32;98;10; 32;42;47].
Definition star_gutter_blank : str :=
  [47;42;10; 32;42;32;97;10; 32;42;10; 32;42;32;98;10; 32;42;47].

Lemma split_nl_aux_no_nl : forall s cur,
  forallb (fun c => negb (c =? NL)) cur = true ->
  Forall (fun l => forallb (fun c => negb (c =? NL)) l = true) (split_nl_aux cur s).
Proof.
  induction s as [|c r IH]; intros cur H; cbn [split_nl_aux].
  - constructor; [apply forallb_rev, H|constructor].
  - destruct (c =? NL) eqn:E.
    + constructor; [apply forallb_rev, H|apply IH; reflexivity].
    + apply IH. cbn [forallb]. rewrite E. exact H.
Qed.
