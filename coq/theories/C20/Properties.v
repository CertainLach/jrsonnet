(** C20 — formatting is idempotent and never crashes: the two hand-written kernels. *)
From Coq Require Import List NArith.
From JrV Require Import C19.Model C19.Trivia C19.Comments C20.Proofs.
Import ListNotations.
Open Scope N_scope.

(** comments.rs: the `expect("all non-empty lines start with this padding")` (and the two
    delimiter `expect`s) are unreachable for every block comment the lexer can produce *)
Theorem C20_comment_strip_total :
  forall body, fmt_ml ([SLASH; STAR] ++ body ++ [STAR; SLASH]) <> None.
Proof.
  intros body. rewrite fmt_ml_delimited. destruct (fmt_ml_body_ok body) as [o [-> _]]. discriminate.
Qed.
Print Assumptions C20_comment_strip_total.

(** children.rs: neither assert fires on a list made of child nodes, trivia, error elements
    and `,`/`;` separators *)
Theorem C20_children_total :
  forall items, forallb sep_only items = true -> children false None items <> None.
Proof.
  intros items H. unfold children.
  pose proof (run_loop_total items (init_st None) eq_refl H) as T.
  destruct (run_loop false (init_st None) items) as [[s r]|]; [discriminate|contradiction].
Qed.
Print Assumptions C20_children_total.

(** `// text` and `# text` are fixed points, with whatever line end the lexer attaches.  PARTIAL:
    idempotence of format_comments is false for multi-line block comments (refuted below). *)
Theorem C20_comment_idempotent_partial :
  forall text body eol, forallb is_ws eol = true ->
    (fmt_slash text = Some body -> fmt_slash (render_slash body ++ eol) = Some body) /\
    (fmt_hash text = Some body -> fmt_hash (render_hash body ++ eol) = Some body).
Proof.
  intros text body eol He. split; intros H.
  - exact (line_comment_idem [SLASH; SLASH] text body eol H He).
  - exact (line_comment_idem [HASH] text body eol H He).
Qed.
Print Assumptions C20_comment_idempotent_partial.

(** findings: a doc comment, and a plain block comment with a ` * ` gutter, that hold a blank line are
    not fixed points of print-then-reprint *)
Theorem C20_comment_idempotent_refuted :
  ml_text_stable [] doc_blank = false /\ ml_text_stable [] star_gutter_blank = false.
Proof. split; vm_compute; reflexivity. Qed.
Print Assumptions C20_comment_idempotent_refuted.

(** finding: a tab inside a comment line reaches dprint inside a string item (debug builds of
    dprint-core panic on that) *)
Theorem C20_comment_tab_in_string_refuted :
  exists tok o, fmt_ml tok = Some o /\ forallb dprint_ok (ml_strings o) = false.
Proof. exists [47;42;97;9;98;42;47]. eexists. split; vm_compute; reflexivity. Qed.
Print Assumptions C20_comment_tab_in_string_refuted.

Example C20_nonvacuous_slash : fmt_slash [47;47;32;32;97;32;10] = Some [97].
Proof. vm_compute. reflexivity. Qed.
