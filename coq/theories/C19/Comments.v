From Coq Require Import List NArith Bool.
From JrV Require Import C19.Model.
Import ListNotations.
Open Scope N_scope.

Definition prefix (p l : str) : Prop := exists r, l = p ++ r.
Definition all_gutter (g : str) : Prop := forallb is_gutter g = true.

Lemma prefix_refl l : prefix l l.
Proof. exists []. rewrite app_nil_r. reflexivity. Qed.

Lemma prefix_nil l : prefix [] l.
Proof. exists l. reflexivity. Qed.

Lemma prefix_cons x p l : prefix p l -> prefix (x :: p) (x :: l).
Proof. intros [r ->]. exists r. reflexivity. Qed.

Lemma prefix_trans a b c : prefix a b -> prefix b c -> prefix a c.
Proof. intros [r1 ->] [r2 ->]. exists (r1 ++ r2). rewrite app_assoc. reflexivity. Qed.

Lemma prefix_gutter p g : prefix p g -> all_gutter g -> all_gutter p.
Proof.
  unfold all_gutter. intros [r ->] H. rewrite forallb_app in H.
  apply andb_true_iff in H. tauto.
Qed.

Lemma cwp_spec : forall a b,
  prefix (common_ws_prefix a b) a /\ prefix (common_ws_prefix a b) b
  /\ all_gutter (common_ws_prefix a b).
Proof.
  induction a as [|x a IH]; intros [|y b]; cbn [common_ws_prefix];
    try (repeat split; apply prefix_nil).
  destruct ((x =? y) && is_gutter x) eqn:E; [|repeat split; apply prefix_nil].
  apply andb_true_iff in E as [E G]. apply N.eqb_eq in E as <-.
  destruct (IH b) as (Ha & Hb & Hg). repeat split; try apply prefix_cons; auto.
  unfold all_gutter. cbn [forallb]. rewrite G. exact Hg.
Qed.

Lemma fold_cwp_prefix : forall others seed,
  prefix (fold_left common_ws_prefix others seed) seed
  /\ Forall (prefix (fold_left common_ws_prefix others seed)) others.
Proof.
  induction others as [|o r IH]; intros seed; cbn [fold_left].
  - split; [apply prefix_refl | constructor].
  - destruct (IH (common_ws_prefix seed o)) as [H1 H2].
    destruct (cwp_spec seed o) as (Hs & Ho & _).
    split; [|constructor; [|exact H2]]; eapply prefix_trans; eauto.
Qed.

Lemma strip_prefix_app : forall p r, strip_prefix p (p ++ r) = Some r.
Proof. induction p as [|x p IH]; intros r; cbn [strip_prefix app]; rewrite ?N.eqb_refl; auto. Qed.

(** relation between an input line and the printed line: a gutter prefix was cut off *)
Definition cut (inp out : str) : Prop := exists g, inp = g ++ out /\ all_gutter g.

Lemma cut_refl l : cut l l.
Proof. exists []. split; reflexivity. Qed.

Lemma strip_all_ok pad : all_gutter pad -> forall ls,
  Forall (fun l => is_empty l = false -> prefix pad l) ls ->
  exists ls', strip_all pad ls = Some ls' /\ Forall2 cut ls ls'.
Proof.
  intros Hg. induction 1 as [|l r Hl _ (r' & E1 & E2)]; cbn [strip_all].
  - exists []. split; auto.
  - rewrite E1. destruct (is_empty l).
    + exists (l :: r'). split; [reflexivity|]. constructor; [apply cut_refl|exact E2].
    + destruct (Hl eq_refl) as [l' ->]. rewrite strip_prefix_app.
      exists (l' :: r'). split; [reflexivity|]. constructor; [|exact E2]. exists pad. auto.
Qed.

Lemma pad_strips h t :
  exists ls', strip_all (fold_left common_ws_prefix (nonempty_lines t) (common_ws_prefix h h)) (h :: t)
              = Some ls' /\ Forall2 cut (h :: t) ls'.
Proof.
  destruct (fold_cwp_prefix (nonempty_lines t) (common_ws_prefix h h)) as [Hs Ho].
  destruct (cwp_spec h h) as (Hh & _ & Hg).
  apply strip_all_ok; [exact (prefix_gutter _ _ Hs Hg)|]. constructor.
  - intros _. exact (prefix_trans _ _ _ Hs Hh).
  - rewrite Forall_forall in *. intros l Hin Hl. apply Ho, filter_In. rewrite Hl. auto.
Qed.

Definition lines_of (text0 : str) : list str :=
  let text := match text0 with
              | c :: r => if c =? STAR then r else text0
              | [] => text0
              end in
  body_lines text.

(** on any text between [/*] and [*/] the multi-line arm never reaches its [expect], and every printed
    line is the input line with a gutter prefix removed *)
Lemma fmt_ml_body_ok text0 :
  exists o, fmt_ml_body text0 = Some o /\
    match o with
    | MLNothing => lines_of text0 = []
    | MLSingle b => exists l0, lines_of text0 = [l0] /\ b = trim l0
    | MLMulti doc ls => Forall2 cut (lines_of text0) ls
    end.
Proof.
  unfold fmt_ml_body, lines_of, body_lines.
  (* [doc] and [text] as two matches on [text0], the second the one [lines_of] has *)
  replace (match text0 with
           | c :: r => if c =? STAR then (true, r) else (false, text0)
           | [] => (false, text0) end)
    with (match text0 with c :: _ => c =? STAR | [] => false end,
          match text0 with c :: r => if c =? STAR then r else text0 | [] => text0 end)
    by (destruct text0 as [|c r]; [|destruct (c =? STAR)]; reflexivity).
  generalize (match text0 with c :: _ => c =? STAR | [] => false end) as doc.
  generalize (map trim_end (split_nl match text0 with
                                     | c :: r => if c =? STAR then r else text0
                                     | [] => text0 end)) as ls0.
  intros ls0 doc.
  destruct (drop_trailing_empty (drop_leading_empty ls0)) as [|l0 rest].
  - exists MLNothing. auto.
  - destruct (is_empty rest && negb doc) eqn:E1.
    + exists (MLSingle (trim l0)). split; [reflexivity|]. exists l0.
      destruct rest; [auto|discriminate].
    + destruct (match ls0 with l :: _ => negb (is_empty l) | [] => true end).
      * (* the first line is kept as it is; the padding comes from the lines after it *)
        destruct rest as [|l1 r2]; cbn [andb is_empty negb skipn].
        -- exists (MLMulti doc [l0]). split; [reflexivity|]. constructor; [apply cut_refl|constructor].
        -- destruct (pad_strips l1 r2) as (ls' & -> & C).
           exists (MLMulti doc (l0 :: ls')). split; [reflexivity|]. constructor; [apply cut_refl|exact C].
      * cbn [andb skipn]. destruct (pad_strips l0 rest) as (ls' & -> & C).
        exists (MLMulti doc ls'). auto.
Qed.

(** the shape of every block comment of the lexer: [/*], a body, a separate [*/] *)
Lemma fmt_ml_delimited body : fmt_ml ([SLASH; STAR] ++ body ++ [STAR; SLASH]) = fmt_ml_body body.
Proof.
  unfold fmt_ml. rewrite strip_prefix_app. unfold strip_suffix.
  rewrite rev_app_distr, strip_prefix_app, rev_involutive. reflexivity.
Qed.

Lemma drop_while_head p s : match drop_while p s with c :: _ => p c = false | [] => True end.
Proof. induction s as [|c r IH]; simpl; auto. destruct (p c) eqn:E; auto. Qed.

Lemma drop_while_id p s : match s with c :: _ => p c = false | [] => True end -> drop_while p s = s.
Proof. destruct s; simpl; auto. intros ->. auto. Qed.

Lemma drop_while_idem p s : drop_while p (drop_while p s) = drop_while p s.
Proof. apply drop_while_id, drop_while_head. Qed.

Lemma drop_while_all p : forall a b, forallb p a = true -> drop_while p (a ++ b) = drop_while p b.
Proof.
  induction a as [|x a IH]; intros b H; simpl; auto.
  simpl in H. apply andb_true_iff in H as [-> H]. auto.
Qed.

Lemma drop_while_all_nil p (a : str) : forallb p a = true -> drop_while p a = [].
Proof. intros H. rewrite <- (app_nil_r a). apply drop_while_all, H. Qed.

Lemma drop_while_snoc p a c : p c = false -> drop_while p (a ++ [c]) = drop_while p a ++ [c].
Proof. intros H. induction a as [|x a IH]; simpl; [rewrite H; reflexivity|]. destruct (p x); auto. Qed.

Lemma drop_while_app_keep p : forall a b,
  (exists c, In c b /\ p c = false) -> drop_while p (a ++ b) = drop_while p a ++ b
  \/ drop_while p a = [].
Proof.
  induction a as [|x a IH]; intros b H; simpl; auto.
  destruct (p x); auto.
Qed.

Lemma forallb_rev (p : N -> bool) (b : str) : forallb p b = true -> forallb p (rev b) = true.
Proof.
  intros H. rewrite forallb_forall in *. intros x Hx. apply H. apply in_rev. exact Hx.
Qed.

Lemma trim_end_idem s : trim_end (trim_end s) = trim_end s.
Proof. unfold trim_end. rewrite rev_involutive, drop_while_idem. reflexivity. Qed.

Lemma trim_end_cons c r : is_ws c = false -> trim_end (c :: r) = c :: trim_end r.
Proof.
  intros H. unfold trim_end. cbn [rev]. rewrite drop_while_snoc, rev_app_distr by exact H. reflexivity.
Qed.

Lemma trim_end_app_ws s b : forallb is_ws b = true -> trim_end (s ++ b) = trim_end s.
Proof.
  intros H. unfold trim_end. rewrite rev_app_distr, drop_while_all by (apply forallb_rev, H). reflexivity.
Qed.

(** the first character of [trim s] is not whitespace *)
Lemma trim_start_of_trim_end_head s :
  match trim s with c :: _ => is_ws c = false | [] => True end.
Proof.
  unfold trim, trim_start. pose proof (drop_while_head is_ws s) as H.
  destruct (drop_while is_ws s) as [|c r]; [exact I|]. rewrite trim_end_cons; exact H.
Qed.

Lemma trim_end_last s :
  match rev (trim_end s) with c :: _ => is_ws c = false | [] => True end.
Proof.
  unfold trim_end. rewrite rev_involutive. apply drop_while_head.
Qed.

Lemma trim_fix s :
  match s with c :: _ => is_ws c = false | [] => True end ->
  match rev s with c :: _ => is_ws c = false | [] => True end ->
  trim s = s.
Proof.
  intros H1 H2. unfold trim, trim_start, trim_end.
  rewrite (drop_while_id _ s H1). rewrite (drop_while_id _ (rev s) H2).
  apply rev_involutive.
Qed.

Lemma trim_end_of_trim s : rev (trim s) = drop_while is_ws (rev (trim_start s)).
Proof. unfold trim, trim_end. rewrite rev_involutive. reflexivity. Qed.

Lemma trim_idem s : trim (trim s) = trim s.
Proof.
  apply trim_fix.
  - apply trim_start_of_trim_end_head.
  - unfold trim. apply trim_end_last.
Qed.

Lemma trim_pad a b s :
  forallb is_ws a = true -> forallb is_ws b = true -> trim (a ++ trim s ++ b) = trim s.
Proof.
  intros Ha Hb. unfold trim at 1. unfold trim_start. rewrite drop_while_all by exact Ha.
  pose proof (trim_start_of_trim_end_head s) as Hh.
  destruct (trim s) as [|c r] eqn:E.
  - cbn [app]. rewrite (drop_while_all_nil _ b Hb). reflexivity.
  - rewrite drop_while_id by exact Hh. rewrite trim_end_app_ws by exact Hb.
    rewrite <- E. apply trim_end_idem.
Qed.

(** [fmt_slash]/[render_slash] at [p] = [//], [fmt_hash]/[render_hash] at [#]; [eol] is the line end the lexer includes *)
Lemma line_comment_idem p text body eol :
  option_map trim (strip_prefix p text) = Some body -> forallb is_ws eol = true ->
  option_map trim (strip_prefix p ((p ++ SP :: body) ++ eol)) = Some body.
Proof.
  destruct (strip_prefix p text) as [t|]; [|discriminate]. intros [= <-] He.
  rewrite <- app_assoc, strip_prefix_app. cbn [option_map]. f_equal.
  apply (trim_pad [SP]); [reflexivity|exact He].
Qed.
