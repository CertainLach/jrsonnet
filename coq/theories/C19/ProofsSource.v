(** C19 / C20 — source tie: the translated kernels of Gen/GenFmt.v are the hand models of C19/Model.v. *)
From Coq Require Import List NArith.
From JrV Require Import C19.Model Gen.GenFmt C19.ModelSource.
Import ListNotations.
Open Scope N_scope.

Lemma gen_cnb_go_eq : forall tt, gen_count_newlines_before_go tt = count_newlines_before tt.
Proof.
  induction tt as [|t r IH]; [reflexivity|].
  destruct t as [k text|text]; simpl; [destruct k|]; rewrite ?IH; reflexivity.
Qed.

Lemma gen_cnb_eq : forall tt, gen_count_newlines_before tt = count_newlines_before tt.
Proof. intros. unfold gen_count_newlines_before. apply gen_cnb_go_eq. Qed.

Lemma gen_cna_go_eq : forall tt, gen_count_newlines_after_go tt = count_newlines_after_rev tt.
Proof.
  induction tt as [|t r IH]; [reflexivity|].
  destruct t as [k text|text]; simpl; [destruct k|]; rewrite ?IH; reflexivity.
Qed.

Lemma gen_cna_eq : forall tt, gen_count_newlines_after tt = count_newlines_after tt.
Proof. intros. unfold gen_count_newlines_after, count_newlines_after. apply gen_cna_go_eq. Qed.

Lemma gen_should_start_eq : forall p tt, gen_should_start p tt = should_start p tt.
Proof.
  intros p tt. unfold gen_should_start, should_start.
  rewrite gen_cnb_eq. destruct p as [p|]; rewrite ?gen_cna_eq; reflexivity.
Qed.

Lemma gen_init_st_eq : forall trailing, gen_init_st trailing = init_st trailing.
Proof. reflexivity. Qed.

Lemma gen_step_eq : forall loose s it, gen_step loose s it = step loose s it.
Proof.
  intros loose [out cur next started had trailing] it.
  destruct it as [v|k text|text| |]; unfold gen_step, step; cbn [s_out s_cur s_next s_started s_had s_trailing].
  - destruct trailing as [t|].
    + destruct next as [|n0 nr]; [|reflexivity]. cbn [is_empty].
      rewrite gen_should_start_eq.
      destruct (should_start (option_map c_inline cur) t) as [a b].
      destruct cur; cbn [opt_list]; rewrite ?app_nil_r; reflexivity.
    + rewrite gen_should_start_eq.
      destruct (should_start (option_map c_inline cur) next) as [a b].
      destruct cur; cbn [opt_list]; rewrite ?app_nil_r; reflexivity.
  - destruct trailing as [t|]; [reflexivity|]. cbn [is_none negb].
    unfold contains_nl, push_inline.
    destruct started; destruct cur as [c|]; cbn [is_none orb];
      (* the translator writes the newline as the literal 10 *)
      destruct (existsb (fun c0 : N => c0 =? NL) text) eqn:E; unfold NL in E; rewrite ?E;
      destruct k; reflexivity.
  - reflexivity.
  - destruct loose; [destruct had|]; reflexivity.
  - destruct loose; [destruct had|]; reflexivity.
Qed.

Lemma gen_finish_eq : forall s, gen_finish s = finish s.
Proof.
  intros [out cur next started had trailing]. unfold gen_finish, finish.
  cbn [s_out s_cur s_next]. rewrite !gen_should_start_eq.
  destruct cur; cbn [opt_list fst option_map]; rewrite ?app_nil_r; reflexivity.
Qed.

Lemma src_run_loop_eq : forall loose items s, src_run_loop loose s items = run_loop loose s items.
Proof.
  induction items as [|it r IH]; intros s; simpl; [reflexivity|].
  rewrite gen_step_eq. destruct (step loose s it); auto.
Qed.

Lemma src_children_eq : forall loose trailing items,
  src_children loose trailing items = children loose trailing items.
Proof.
  intros. unfold src_children, children. rewrite src_run_loop_eq, gen_init_st_eq.
  destruct (run_loop loose (init_st trailing) items) as [[s rest]|]; [|reflexivity].
  rewrite gen_finish_eq. reflexivity.
Qed.
