From Coq Require Import List NArith Bool.
From JrV Require Import C19.Model.
Import ListNotations.

Definition cur_triv (o : option child) : list tr :=
  match o with Some c => c_before c ++ c_inline c | None => [] end.

Definition flat (s : st) : list tr :=
  flat_map (fun c => c_before c ++ c_inline c) (s_out s) ++ cur_triv (s_cur s) ++ s_next s.

Definition vals (s : st) : list N :=
  map c_value (s_out s) ++ map c_value (opt_list (s_cur s)).

(** nothing waits in [next] unless [started_next] is set — true as long as no error element
    was met (error elements are pushed to [next] without setting the flag) *)
Definition children_inv (s : st) : Prop :=
  s_trailing s = None /\ (s_started s = false -> s_next s = []).

Definition not_err (it : item) : bool := match it with IErr _ => false | _ => true end.

Lemma flat_out_cur (out : list child) (cur : option child) :
  flat_map (fun c => c_before c ++ c_inline c) (out ++ opt_list cur)
  = flat_map (fun c => c_before c ++ c_inline c) out ++ cur_triv cur.
Proof.
  rewrite flat_map_app. destruct cur; simpl; auto. rewrite app_nil_r. reflexivity.
Qed.

(* closes a case of [step] once the new state is known: a computation on its fields, up to [app_assoc] *)
Local Ltac fields :=
  unfold children_inv, flat, vals; cbn;
  rewrite ?flat_out_cur, ?map_app, ?app_nil_r, <- ?app_assoc; repeat split; auto; discriminate.

Lemma step_continue loose s it s' :
  children_inv s -> not_err it = true -> step loose s it = Continue s' ->
  children_inv s' /\ flat s' = flat s ++ tr_of_item it
  /\ vals s' = vals s ++ match it with INode n => [n] | _ => [] end.
Proof.
  intros [Ht Hn] Hne Hs. destruct s as [out cur nxt started had trailing].
  cbn in Ht, Hn. subst trailing.
  destruct it as [v | k text | text | | ]; cbn in Hs; try discriminate.
  - destruct (should_start (option_map c_inline cur) nxt) as [ssn multi].
    injection Hs as <-. fields.
  - destruct (started || is_none cur || (contains_nl text && negb (single_line_comment k))) eqn:E.
    + injection Hs as <-. fields.
    + (* attached inline to the current child: nothing waits in [next] *)
      destruct cur as [c|]; [|discriminate]. injection Hs as <-.
      destruct started; [discriminate|]. rewrite (Hn eq_refl).
      destruct (single_line_comment k); fields.
  - destruct loose; [destruct had; [discriminate|]|]; injection Hs as <-; fields.
  - destruct loose; [|discriminate]. destruct had; [discriminate|]. injection Hs as <-. fields.
Qed.

Lemma step_break loose s it s' : step loose s it = Break s' -> s' = s /\ loose = true.
Proof.
  destruct s as [out cur nxt started had trailing].
  destruct it as [v | k text | text | | ]; cbn; intros H.
  - destruct trailing as [t|]; [destruct (is_empty nxt)|];
      try discriminate;
      destruct (should_start _ _); discriminate.
  - destruct trailing; [discriminate|].
    destruct (started || is_none cur || _); [discriminate|]. destruct cur; discriminate.
  - discriminate.
  - destruct loose; [|discriminate]. destruct had; [|discriminate]. injection H as <-. auto.
  - destruct loose; [|discriminate]. destruct had; [|discriminate]. injection H as <-. auto.
Qed.

Lemma run_loop_inv loose : forall items s s' rest,
  children_inv s -> forallb not_err items = true ->
  run_loop loose s items = Some (s', rest) ->
  exists pre, items = pre ++ rest
    /\ flat s' = flat s ++ trivia_of pre
    /\ vals s' = vals s ++ nodes_of pre
    /\ (loose = false -> rest = []).
Proof.
  induction items as [|it r IH]; intros s s' rest HI Hne H; cbn [run_loop] in H.
  - injection H as <- <-. exists []. cbn. rewrite !app_nil_r. auto.
  - cbn [forallb] in Hne. apply andb_true_iff in Hne as [Hit Hr].
    destruct (step loose s it) as [s1 | s1 |] eqn:E; [| |discriminate].
    + destruct (step_continue _ _ _ _ HI Hit E) as (HI1 & Hf & Hv).
      destruct (IH _ _ _ HI1 Hr H) as (pre & -> & Hf' & Hv' & Hl).
      exists (it :: pre). split; [reflexivity|].
      unfold trivia_of, nodes_of in *. cbn [flat_map].
      rewrite Hf', Hf, Hv', Hv, <- !app_assoc. auto.
    + injection H as <- <-. destruct (step_break _ _ _ _ E) as [-> ->].
      exists []. cbn. rewrite !app_nil_r. repeat split; auto. discriminate.
Qed.

Lemma no_err_forallb items : no_err items = forallb not_err items.
Proof. reflexivity. Qed.

Lemma collected_finish s : collected (finish s) = flat s.
Proof.
  unfold collected, finish, flat; simpl. rewrite flat_out_cur, <- app_assoc. reflexivity.
Qed.

Lemma init_inv : children_inv (init_st None).
Proof. split; auto. Qed.

Lemma children_spec loose items cs e :
  no_err items = true ->
  children loose None items = Some (cs, e) ->
  exists pre post, items = pre ++ post
    /\ collected (cs, e) = trivia_of pre /\ map c_value cs = nodes_of pre
    /\ (loose = false -> post = []).
Proof.
  unfold children. intros Hne H. rewrite no_err_forallb in Hne.
  destruct (run_loop loose (init_st None) items) as [[s rest]|] eqn:E; [|discriminate].
  assert (Hfin : finish s = (cs, e)) by congruence. clear H.
  destruct (run_loop_inv loose items _ _ _ init_inv Hne E) as (pre & Hp & Hf & Hv & Hl).
  exists pre, rest. rewrite <- Hfin, collected_finish. repeat split; auto.
  injection Hfin as <- _. rewrite map_app. exact Hv.
Qed.

(** anything but [IOther]: child nodes, trivia, error elements and separators *)
Definition sep_only (it : item) : bool := match it with IOther => false | _ => true end.

(** no assert of [children] can fire in a non-loose call on such items *)
Lemma step_total s it :
  s_trailing s = None -> sep_only it = true ->
  exists s', step false s it = Continue s' /\ s_trailing s' = None.
Proof.
  intros Ht Hs. destruct s as [out cur nxt started had trailing]. cbn in Ht. subst.
  destruct it as [v | k text | text | | ]; cbn; try discriminate; eauto.
  destruct (started || is_none cur || (contains_nl text && negb (single_line_comment k))) eqn:E; [eauto|].
  destruct cur; [eauto|]. destruct started; discriminate.
Qed.

Lemma run_loop_total : forall items s,
  s_trailing s = None -> forallb sep_only items = true ->
  run_loop false s items <> None.
Proof.
  induction items as [|it r IH]; intros s Ht Hs; cbn [run_loop]; [discriminate|].
  cbn [forallb] in Hs. apply andb_true_iff in Hs as [Hi Hr].
  destruct (step_total s it Ht Hi) as (s1 & -> & Ht1). apply IH; assumption.
Qed.
