(** C19 — formatting preserves the program: the two hand-written kernels and the token reduction. *)
From Coq Require Import List NArith.
From JrV Require Import C19.Model C19.Trivia C19.Comments C19.TokenEq.
Import ListNotations.
Open Scope N_scope.

(** children.rs: without error elements (format() refuses syntax errors) the trivia collected into
    before/inline of all children and the ending comments is the input trivia in input order, and the
    children are the input's child nodes in order. *)
Theorem C19_children_partition_lossless :
  forall items cs e,
    no_err items = true ->
    children false None items = Some (cs, e) ->
    collected (cs, e) = trivia_of items /\ map c_value cs = nodes_of items.
Proof.
  intros items cs e Hne H.
  destruct (children_spec _ _ _ _ Hne H) as (pre & post & -> & Hc & Hv & Hl).
  rewrite (Hl eq_refl), app_nil_r. auto.
Qed.
Print Assumptions C19_children_partition_lossless.

(** the same for a `loose` call, about the prefix it consumes *)
Theorem C19_children_partition_lossless_loose :
  forall items cs e,
    no_err items = true ->
    children true None items = Some (cs, e) ->
    exists pre post, items = pre ++ post
      /\ collected (cs, e) = trivia_of pre /\ map c_value cs = nodes_of pre.
Proof.
  intros items cs e Hne H.
  destruct (children_spec _ _ _ _ Hne H) as (pre & post & Hp & Hc & Hv & _).
  exists pre, post. auto.
Qed.
Print Assumptions C19_children_partition_lossless_loose.

(** finding (unreachable through format(), which refuses syntax errors): with an error
    element in the list the order is not kept *)
Theorem C19_children_order_with_error_refuted :
  exists items cs e, children false None items = Some (cs, e)
     /\ collected (cs, e) <> trivia_of items.
Proof.
  exists [INode 1; IErr [101]; ITriv MLc [47; 42; 99; 42; 47]; INode 2].
  eexists. eexists. split; [vm_compute; reflexivity|]. vm_compute. discriminate.
Qed.
Print Assumptions C19_children_order_with_error_refuted.

(** comments.rs, block comments: the printed lines are the lines of [lines_of body], one for one, each
    with only a prefix of ASCII whitespace and `*` removed (multi-line form) or trimmed (single-line form) *)
Theorem C19_comment_text_preserved :
  forall body o,
    fmt_ml ([SLASH; STAR] ++ body ++ [STAR; SLASH]) = Some o ->
    match o with
    | MLNothing => lines_of body = []
    | MLSingle b => exists l0, lines_of body = [l0] /\ b = trim l0
    | MLMulti doc ls => Forall2 cut (lines_of body) ls
    end.
Proof.
  intros body o. rewrite fmt_ml_delimited. destruct (fmt_ml_body_ok body) as [o' [-> H]].
  intros [= <-]. exact H.
Qed.
Print Assumptions C19_comment_text_preserved.

(** finding: a block comment without text is printed as nothing at all *)
Theorem C19_empty_block_comment_dropped_refuted :
  exists tok, fmt_ml tok = Some MLNothing /\ render_ml [] MLNothing = [].
Proof. exists [SLASH; STAR; SP; STAR; SLASH]. split; reflexivity. Qed.
Print Assumptions C19_empty_block_comment_dropped_refuted.

(** a parser that sees only the non-trivia lexemes, and positions only to fill position fields, gives
    the same tree for two texts with the same non-trivia tokens; inserting trivia does not change those *)
Theorem C19_parse_depends_on_tokens :
  forall (is_trivia : N -> bool) (tree : Type) (P : list lexeme -> tree) (erase : tree -> tree),
    (forall l1 l2, map unspan l1 = map unspan l2 -> erase (P l1) = erase (P l2)) ->
    forall ls1 ls2,
      map unspan (nontrivia is_trivia ls1) = map unspan (nontrivia is_trivia ls2) ->
      erase (parse is_trivia tree P ls1) = erase (parse is_trivia tree P ls2).
Proof. intros is_trivia tree P erase HP ls1 ls2 H. unfold parse. apply HP. exact H. Qed.
Print Assumptions C19_parse_depends_on_tokens.

Theorem C19_trivia_insertion_invisible :
  forall is_trivia a t b,
    forallb (fun l => is_trivia (lx_kind l)) t = true ->
    nontrivia is_trivia (a ++ t ++ b) = nontrivia is_trivia (a ++ b).
Proof.
  intros is_trivia a t b H. rewrite !nontrivia_app, (nontrivia_all_trivia _ _ H). reflexivity.
Qed.
Print Assumptions C19_trivia_insertion_invisible.

Example C19_nonvacuous_children :
  exists cs e, children false None
     [ITriv MLc [47;42;97;42;47]; INode 1; ITriv MLc [47;42;98;42;47]; ISep; ITriv Ws [10]; INode 2]
     = Some (cs, e) /\ length cs = 2%nat.
Proof. eexists. eexists. split; [vm_compute; reflexivity | reflexivity]. Qed.
Example C19_nonvacuous_comment :
  fmt_ml [47;42;10;32;42;32;97;10;32;42;32;98;10;32;42;47] = Some (MLMulti false [[97]; [98]]).
Proof. vm_compute. reflexivity. Qed.
