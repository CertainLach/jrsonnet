(** C19 — "same non-trivia tokens => same program", over an arbitrary parser that is handed the lexemes
    with the trivia kinds filtered out (what jrsonnet-ir-parser's Parser::new does). *)
From Coq Require Import List NArith Bool.
From JrV Require Import C19.Model.
Import ListNotations.

Section TokenEq.
  Variable is_trivia : N -> bool.
  Variable tree : Type.
  (** the parser proper: sees kinds, texts AND spans of the non-trivia lexemes *)
  Variable P : list lexeme -> tree.

  Definition parse (ls : list lexeme) : tree := P (nontrivia is_trivia ls).
End TokenEq.

Lemma nontrivia_app is_trivia a b :
  nontrivia is_trivia (a ++ b) = nontrivia is_trivia a ++ nontrivia is_trivia b.
Proof. unfold nontrivia. apply filter_app. Qed.

Lemma nontrivia_all_trivia is_trivia t :
  forallb (fun l => is_trivia (lx_kind l)) t = true -> nontrivia is_trivia t = [].
Proof.
  induction t as [|x t IH]; cbn; [reflexivity|].
  intros H. apply andb_true_iff in H as [-> H]. exact (IH H).
Qed.
