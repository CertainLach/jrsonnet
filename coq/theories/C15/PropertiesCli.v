(** C15 — property theorems about the command-line option structs, stated on the functions and tables that
    translator/gens/cliopts.py regenerates from crates/jrsonnet-cli/src/{manifest,tla,stdlib,lib}.rs on every run. *)
From Coq Require Import List Bool String.
From JrV Require Import C15.Model Gen.GenCli C15.ModelCli C15.ProofsCli.
Import ListNotations.
Open Scope string_scope.
Open Scope list_scope.

(** a NAME is bound by TlaOpts::tla_opts iff some --tla-X option names it, and then to the documented meaning
    of one of the options that name it *)
Theorem C15_cli_tla_mapping_refines :
  forall (o : vecs) (n : string),
    match option_map sem (lookup n (cli_tla o)) with
    | Some b => In (n, b) (spec_bindings o)
    | None => forall b, ~ In (n, b) (spec_bindings o)
    end.
Proof. exact (fun o => last_wins_refines _ o (tla_last_wins o)). Qed.
Print Assumptions C15_cli_tla_mapping_refines.

(** the same for the external variables set up by StdOpts::context_initializer *)
Theorem C15_cli_ext_mapping_refines :
  forall (o : vecs) (n : string),
    match option_map sem (lookup n (cli_ext o)) with
    | Some b => In (n, b) (spec_bindings o)
    | None => forall b, ~ In (n, b) (spec_bindings o)
    end.
Proof. exact (fun o => last_wins_refines _ o (ext_last_wins o)). Qed.
Print Assumptions C15_cli_ext_mapping_refines.

(** a NAME given exactly once gets exactly its documented meaning *)
Theorem C15_cli_tla_unique_name :
  forall o n b, about n o = [(n, b)] -> option_map sem (lookup n (cli_tla o)) = Some b.
Proof. exact (fun o n b => last_wins_unique _ o n b (tla_last_wins o)). Qed.
Print Assumptions C15_cli_tla_unique_name.
Theorem C15_cli_ext_unique_name :
  forall o n b, about n o = [(n, b)] -> option_map sem (lookup n (cli_ext o)) = Some b.
Proof. exact (fun o n b => last_wins_unique _ o n b (ext_last_wins o)). Qed.
Print Assumptions C15_cli_ext_unique_name.

(** repeated NAMEs: the last binding wins, in the order (all --X-str) (all --X-str-file) (all --X-code)
    (all --X-code-file), each group in command-line order *)
Theorem C15_cli_tla_repeated_name_last_wins :
  forall o n, option_map sem (lookup n (cli_tla o)) = lastb n (spec_bindings o).
Proof. exact tla_last_wins. Qed.
Print Assumptions C15_cli_tla_repeated_name_last_wins.
Theorem C15_cli_ext_repeated_name_last_wins :
  forall o n, option_map sem (lookup n (cli_ext o)) = lastb n (spec_bindings o).
Proof. exact ext_last_wins. Qed.
Print Assumptions C15_cli_ext_repeated_name_last_wins.

(** what NAME is bound to depends only on the options that mention NAME *)
Theorem C15_cli_tla_independent_of_other_names :
  forall o o' n, about n o = about n o' ->
    option_map sem (lookup n (cli_tla o)) = option_map sem (lookup n (cli_tla o')).
Proof. exact (fun o o' n => last_wins_independent _ o _ o' n (tla_last_wins o) (tla_last_wins o')). Qed.
Print Assumptions C15_cli_tla_independent_of_other_names.
Theorem C15_cli_ext_independent_of_other_names :
  forall o o' n, about n o = about n o' ->
    option_map sem (lookup n (cli_ext o)) = option_map sem (lookup n (cli_ext o')).
Proof. exact (fun o o' n => last_wins_independent _ o _ o' n (ext_last_wins o) (ext_last_wins o')). Qed.
Print Assumptions C15_cli_ext_independent_of_other_names.

(** MiscOpts::import_resolver searches rev(-J list) ++ JSONNET_PATH entries in order *)
Theorem C15_cli_search_path_refines :
  forall (A : Type) (jpath : list A) (env : option (list A)),
    gen_import_resolver jpath env = rev jpath ++ match env with Some l => l | None => [] end
    /\ gen_path_env_var = "JSONNET_PATH".
Proof.
  intros A jpath env. split; [|reflexivity]. unfold gen_import_resolver.
  destruct env; [reflexivity|]. rewrite app_nil_r. reflexivity.
Qed.
Print Assumptions C15_cli_search_path_refines.

(** "-J ... (right-most wins)": the last -J directory holding the file is the one found first *)
Theorem C15_cli_jpath_rightmost_wins :
  forall (A : Type) (has : A -> bool) (before : list A) (d : A) (after : list A) (env : option (list A)),
    has d = true -> forallb (fun x => negb (has x)) after = true ->
    first_with has (gen_import_resolver (before ++ d :: after) env) = Some d.
Proof.
  intros A has before d after env Hd Ha.
  destruct (C15_cli_search_path_refines A (before ++ d :: after) env) as [-> _].
  rewrite rev_app_distr. cbn [rev]. rewrite <- !app_assoc, first_with_app.
  rewrite first_with_none; [cbn [or_else app first_with]; rewrite Hd; reflexivity|].
  intros x Hx. apply in_rev in Hx. rewrite forallb_forall in Ha. apply negb_true_iff, Ha, Hx.
Qed.
Print Assumptions C15_cli_jpath_rightmost_wins.

(** the translated ManifestOpts::manifest_format is the hand model [select], so C15_format_selection speaks
    about the source *)
Theorem C15_cli_select_is_translated_source :
  forall f s y p, writer_of_g (gen_manifest_format (option_map fmt_g f) s y p) = select f s y p.
Proof. intros f s y p. destruct f as [[]|], s, y, p; reflexivity. Qed.
Print Assumptions C15_cli_select_is_translated_source.

(** clap's conflicts_with table: -S excludes --format, -y excludes -S, nothing else is rejected *)
Theorem C15_cli_conflicts_as_documented :
  forall f s y p,
    cli_accepts f s y p = negb (s && match f with Some _ => true | None => false end) && negb (y && s).
Proof. intros f s y p. destruct f, s, y, p; reflexivity. Qed.
Print Assumptions C15_cli_conflicts_as_documented.

Definition ex_opts : vecs :=
  {| v_str := [("a", "1"); ("b", "x"); ("a", "2")]; v_str_file := [("f", "/p/f.txt"); ("b", "/p/b.txt")];
     v_code := [("c", "1+1")]; v_code_file := [("g", "/p/g.jsonnet"); ("c", "/p/c.jsonnet")] |}.
Example ex_tla_values :
  map (fun n => option_map sem (lookup n (cli_tla ex_opts))) ["a"; "b"; "c"; "f"; "g"; "zz"]
  = [Some (MStringItself "2"); Some (MContentsOfFileAsString "/p/b.txt"); Some (MImportOfFile "/p/c.jsonnet");
     Some (MContentsOfFileAsString "/p/f.txt"); Some (MImportOfFile "/p/g.jsonnet"); None].
Proof. reflexivity. Qed.
Example ex_ext_values :
  map (fun n => option_map sem (lookup n (cli_ext ex_opts))) ["a"; "f"; "zz"]
  = [Some (MStringItself "2"); Some (MContentsOfFileAsString "/p/f.txt"); None].
Proof. reflexivity. Qed.
Example ex_unique_hyp : about "f" ex_opts = [("f", MContentsOfFileAsString "/p/f.txt")].
Proof. reflexivity. Qed.
Example ex_independent_hyp :
  about "f" ex_opts = about "f" {| v_str := [("q", "9")]; v_str_file := [("f", "/p/f.txt")]; v_code := []; v_code_file := [] |}.
Proof. reflexivity. Qed.
Example ex_search_path : gen_import_resolver ["j1"; "j2"; "j3"] (Some ["e1"; "e2"]) = ["j3"; "j2"; "j1"; "e1"; "e2"].
Proof. reflexivity. Qed.
Example ex_rightmost :
  first_with (fun d => orb (String.eqb d "j1") (orb (String.eqb d "j2") (String.eqb d "e1")))
             (gen_import_resolver (["j1"] ++ "j2" :: ["j3"]) (Some ["e1"])) = Some "j2".
Proof. reflexivity. Qed.
Example ex_select :
  writer_of_g (gen_manifest_format (option_map fmt_g None) false true None) = WYamlStream (WYaml 2)
  /\ writer_of_g (gen_manifest_format (option_map fmt_g (Some FToml)) false false (Some 7)) = WToml 7.
Proof. split; reflexivity. Qed.
Example ex_conflicts : cli_accepts (Some FJson) true false None = false /\ cli_accepts None true true None = false
                       /\ cli_accepts (Some FJson) false true (Some 1) = true.
Proof. repeat split; reflexivity. Qed.
