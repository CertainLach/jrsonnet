(** C15 — property theorems: C-API framing, dependency lister, CLI writer selection. *)
From Coq Require Import List Lia.
From JrV Require Import C15.Model C15.Proofs.
Import ListNotations.

(** the multi/stream framing of libjsonnet is read back exactly by the documented C loop *)
Theorem C15_frame_roundtrip :
  forall kvs, forallb pair_ok kvs = true -> decode (S (length kvs)) (encode kvs) = kvs.
Proof.
  intros kvs H. destruct kvs as [|[k v] t]; [reflexivity|].
  rewrite encode_body. apply decode_body; [exact H|lia].
Qed.
Print Assumptions C15_frame_roundtrip.

(** jrsonnet-deps lists exactly the statically reachable files, for every finite import graph
    with any mix of import / importstr / importbin edges in any order *)
Theorem C15_deps_exact :
  forall g root fuel d e,
    deps_of fuel g root = Some (d, e) ->
    (forall m, In m d <-> Listed g root m) /\ (forall n, In n e <-> Expanded g root n).
Proof.
  intros g root fuel d e H.
  destruct (collect_spec g root _ _ _ _ _ _ H) as [[S (_ & He & N)] C].
  destruct S as [Sd Se].
  { constructor. }
  { split; [intros m []|]. intros n [<-|[]]. constructor. }
  assert (Hclosed : forall x, In x e -> closed g x d e).
  { intros x Hx. destruct (N x Hx) as [[<-|[]]|Cx]; assumption. }
  assert (Hexp : forall n, Expanded g root n -> In n e).
  { induction 1 as [|n m Hn IHn Hin]; [apply He; left; reflexivity|].
    apply (Hclosed n IHn m true Hin). reflexivity. }
  split.
  - intros m. split; [apply Sd|]. intros [n m' k Hn Hin].
    apply (Hclosed n (Hexp n Hn) m' k Hin).
  - intros n. split; [apply Se|apply Hexp].
Qed.
Print Assumptions C15_deps_exact.

(** before commit 2d84f1a a file first seen through importstr was never descended into *)
Theorem C15_deps_old_refuted :
  let g := fun n => match n with 0 => [(1, false); (1, true)] | 1 => [(2, true)] | _ => [] end in
  collect_old 10 g 0 [] = Some [1] /\ Listed g 0 2.
Proof.
  cbn zeta. split; [reflexivity|].
  eapply li_edge with (n := 1) (k := true); [|cbn; auto].
  eapply ex_import with (n := 0); [constructor|cbn; auto].
Qed.
Print Assumptions C15_deps_old_refuted.

(** writer selection: the documented defaults *)
Theorem C15_format_selection :
  (forall p, select None false false p = WJson (match p with Some n => n | None => 3 end)) /\
  (forall f y p, select f true y p = if y then WYamlStream WStringRaw else WStringRaw) /\
  (forall p, select None false true p = WYamlStream (WYaml (match p with Some n => n | None => 2 end))) /\
  (forall p, select (Some FToml) false false p = WToml (match p with Some n => n | None => 2 end)) /\
  (forall p, select (Some FString) false false p = WToString) /\
  (forall p, select (Some FXml) false false p = WXml) /\
  (forall p, select (Some FIni) false false p = WIni).
Proof. repeat split; intros; reflexivity. Qed.
Print Assumptions C15_format_selection.
