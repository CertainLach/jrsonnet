From Coq Require Import List NArith Bool Arith Lia.
From JrV Require Import C15.Model.
Import ListNotations.

Lemma nonul_cons x b : nonul (x :: b) = true <-> N.eqb x 0 = false /\ nonul b = true.
Proof. unfold nonul. cbn [forallb]. rewrite andb_true_iff, negb_true_iff. reflexivity. Qed.

Lemma cstr_app s r : nonul s = true -> cstr (s ++ 0%N :: r) = (s, r).
Proof.
  induction s as [|x s IH]; intros H; cbn [app cstr]; [reflexivity|].
  apply nonul_cons in H as [-> Hs]. rewrite (IH Hs). reflexivity.
Qed.

Definition pair_ok (kv : bytes * bytes) : bool :=
  nonul (fst kv) && nonul (snd kv) && negb (Nat.eqb (length (fst kv)) 0).

Lemma pair_ok_spec k v : pair_ok (k, v) = true -> nonul k = true /\ nonul v = true /\ k <> [].
Proof.
  unfold pair_ok. cbn [fst snd]. rewrite !andb_true_iff. intros [[Hk Hv] Hne].
  repeat split; try assumption. intros ->. discriminate.
Qed.

Lemma decode_pair f k v r :
  nonul k = true -> nonul v = true -> k <> [] ->
  decode (S f) (k ++ 0%N :: v ++ 0%N :: r) = (k, v) :: decode f r.
Proof.
  intros Hk Hv Hne. destruct k as [|x k]; [contradiction|]. clear Hne.
  pose proof (cstr_app _ (v ++ 0%N :: r) Hk) as Ck. apply nonul_cons in Hk as [Hx _].
  cbn [decode app] in *. rewrite Hx, Ck, (cstr_app v r Hv). reflexivity.
Qed.

Fixpoint body (kvs : list (bytes * bytes)) : bytes :=
  match kvs with
  | [] => [0%N]
  | (k, v) :: t => k ++ 0%N :: v ++ 0%N :: body t
  end.

Lemma encode_tail kvs : encode_pairs kvs false ++ [0%N; 0%N] = 0%N :: body kvs.
Proof.
  induction kvs as [|[k v] t IH]; cbn [encode_pairs body app]; [reflexivity|].
  rewrite <- !app_assoc. cbn [app]. rewrite <- !app_assoc, IH. reflexivity.
Qed.

Lemma encode_body k v t : encode ((k, v) :: t) = body ((k, v) :: t).
Proof.
  unfold encode. cbn [encode_pairs body app]. rewrite <- !app_assoc. cbn [app].
  rewrite <- !app_assoc, encode_tail. reflexivity.
Qed.

Lemma decode_body kvs : forall fuel,
  forallb pair_ok kvs = true -> length kvs < fuel -> decode fuel (body kvs) = kvs.
Proof.
  induction kvs as [|[k v] t IH]; intros [|f] Hok Hf; try (cbn [length] in Hf; lia).
  - reflexivity.
  - cbn [forallb] in Hok. apply andb_true_iff in Hok as [Hkv Ht].
    apply pair_ok_spec in Hkv as (Hk & Hv & Hne).
    cbn [body]. rewrite (decode_pair _ _ _ _ Hk Hv Hne), IH; [reflexivity|exact Ht|].
    cbn [length] in Hf. lia.
Qed.

(** an empty key ends the C consumer's loop early: the hypothesis is necessary *)
Lemma frame_empty_key_refuted :
  decode 5 (encode [([], [1%N]); ([2%N], [3%N])]) = [].
Proof. reflexivity. Qed.

Lemma mem_in n l : mem n l = true <-> In n l.
Proof.
  induction l as [|x t IH]; cbn [mem In]; [split; [discriminate|tauto]|].
  rewrite orb_true_iff, IH, Nat.eqb_eq. split; intros [H|H]; auto.
Qed.

Lemma in_add n m l : In n (add m l) <-> n = m \/ In n l.
Proof.
  unfold add. destruct (mem m l) eqn:E.
  - apply mem_in in E. split; [auto|]. intros [->|H]; assumption.
  - cbn [In]. split; intros [H|H]; auto.
Qed.

(** the inner [fix edges] of [collect], the recursive call a parameter *)
Definition walk (rec : node -> list node -> list node -> option (list node * list node)) :=
  fix edges (es : list (node * bool)) (deps expanded : list node) : option (list node * list node) :=
    match es with
    | [] => Some (deps, expanded)
    | (m, is_import) :: t =>
        if is_import && negb (mem m expanded) then
          match rec m (add m deps) (m :: expanded) with
          | Some (d2, e2) => edges t d2 e2
          | None => None
          end
        else edges t (add m deps) expanded
    end.

Lemma collect_S f g src deps expanded :
  collect (S f) g src deps expanded = walk (collect f g) (g src) deps expanded.
Proof. reflexivity. Qed.

Section DepsFacts.
  Variable g : graph.
  Variable root : node.

  Definition sound (deps expanded : list node) : Prop :=
    (forall m, In m deps -> Listed g root m) /\ (forall n, In n expanded -> Expanded g root n).

  Definition closed (n : node) (deps expanded : list node) : Prop :=
    forall m k, In (m, k) (g n) -> In m deps /\ (k = true -> In m expanded).

  Lemma closed_mono n d e d' e' : incl d d' -> incl e e' -> closed n d e -> closed n d' e'.
  Proof. intros Hd He H m k Hin. destruct (H m k Hin) as [A B]. auto. Qed.

  (** the walk only adds files, and every file it adds to [expanded] is closed at the end *)
  Definition post (deps expanded d' e' : list node) : Prop :=
    incl deps d' /\ incl expanded e' /\
    (forall x, In x e' -> In x expanded \/ closed x d' e').

  Lemma post_skip m d e d' e' : post (add m d) e d' e' -> post d e d' e' /\ In m d'.
  Proof.
    intros (Hd & He & N).
    assert (Hd0 : forall x, x = m \/ In x d -> In x d') by (intros x Hx; apply Hd, in_add, Hx).
    repeat split; auto. intros x Hx. auto.
  Qed.

  Lemma post_enter m d e d1 e1 d' e' :
    post (add m d) (m :: e) d1 e1 -> closed m d1 e1 -> post d1 e1 d' e' ->
    post d e d' e' /\ In m d' /\ In m e'.
  Proof.
    intros (Hd1 & He1 & N1) C (Hd & He & N).
    assert (Hd0 : forall x, x = m \/ In x d -> In x d') by (intros x Hx; apply Hd, Hd1, in_add, Hx).
    assert (He0 : forall x, m = x \/ In x e -> In x e') by (intros x Hx; apply He, He1, Hx).
    repeat split; auto; intros x Hx; auto.
    destruct (N x Hx) as [Hx1|Cx]; [|auto].
    destruct (N1 x Hx1) as [[<-|Hx0]|Cx]; [right|auto|right]; eapply closed_mono; eassumption.
  Qed.

  Definition call_spec (src : node) (deps expanded d' e' : list node) : Prop :=
    (Expanded g root src -> sound deps expanded -> sound d' e') /\ post deps expanded d' e'.

  Lemma walk_spec rec src :
    (forall m d e d' e', rec m d e = Some (d', e') -> call_spec m d e d' e' /\ closed m d' e') ->
    forall es, incl es (g src) -> forall deps expanded d' e',
      walk rec es deps expanded = Some (d', e') ->
      call_spec src deps expanded d' e' /\
      (forall m k, In (m, k) es -> In m d' /\ (k = true -> In m e')).
  Proof.
    intros Hrec. induction es as [|[m k] t IH]; intros Hsub deps expanded d' e' H.
    - injection H as <- <-. split; [split; [auto|]|intros m k []].
      repeat split; auto using incl_refl.
    - apply incl_cons_inv in Hsub as [Hin Hsub]. cbn [walk] in H.
      assert (S1 : Expanded g root src -> sound deps expanded -> sound (add m deps) expanded).
      { intros Hsrc [Sd Se]. split; [|exact Se].
        intros x Hx. apply in_add in Hx as [->|Hx]; [exact (li_edge _ _ _ _ _ Hsrc Hin)|auto]. }
      destruct (k && negb (mem m expanded)) eqn:C.
      + apply andb_true_iff in C as [-> _].
        destruct (rec m (add m deps) (m :: expanded)) as [[d2 e2]|] eqn:R; [|discriminate].
        destruct (Hrec _ _ _ _ _ R) as ([S2 P1] & C1). destruct (IH Hsub _ _ _ _ H) as ([S3 P2] & Ct).
        destruct (post_enter _ _ _ _ _ _ _ P1 C1 P2) as (P & Md & Me).
        split; [split; [|exact P]|intros m' k' [[= <- <-]|Hin']; auto].
        intros Hsrc S. pose proof (ex_import _ _ _ _ Hsrc Hin) as Hm.
        apply (S3 Hsrc), (S2 Hm). destruct (S1 Hsrc S) as [Sd Se]. split; [exact Sd|].
        intros x [<-|Hx]; auto.
      + destruct (IH Hsub _ _ _ _ H) as ([S3 P2] & Ct). destruct (post_skip _ _ _ _ _ P2) as [P Md].
        split; [split; [auto|exact P]|].
        intros m' k' [[= <- <-]|Hin']; [|auto]. split; [exact Md|].
        intros ->. destruct P as (_ & He & _). apply He, mem_in, negb_false_iff. exact C.
  Qed.

  Lemma collect_spec fuel : forall src deps expanded d' e',
    collect fuel g src deps expanded = Some (d', e') ->
    call_spec src deps expanded d' e' /\ closed src d' e'.
  Proof.
    induction fuel as [|f IH]; intros src deps expanded d' e' H; [discriminate|].
    rewrite collect_S in H. exact (walk_spec _ _ IH _ (incl_refl _) _ _ _ _ H).
  Qed.
End DepsFacts.

Example deps_example :
  let g := fun n => match n with 0 => [(1, false); (1, true); (3, false)] | 1 => [(2, true); (0, true)] | _ => [] end in
  deps_of 10 g 0 = Some ([3; 0; 2; 1], [2; 1; 0]).
Proof. reflexivity. Qed.
