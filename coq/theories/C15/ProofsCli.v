From Coq Require Import List String.
From JrV Require Import Gen.GenCli C15.ModelCli.
Import ListNotations.
Open Scope string_scope.
Open Scope list_scope.

(** the translated tables are the documented ones (fails when the source changes an arm) *)
Definition doc_loops : list (gvec * gfield * gctor * gfield) :=
  [(VStr, FName, CString, FValue); (VStrFile, FName, CImportStr, FPath);
   (VCode, FName, CInlineCode, FValue); (VCodeFile, FName, CImport, FPath)].

Lemma tla_loops_doc : gen_tla_loops = doc_loops.
Proof. reflexivity. Qed.
Lemma ext_loops_doc : gen_ext_loops = doc_loops.
Proof. reflexivity. Qed.

(** how a later group of bindings shadows an earlier one *)
Definition or_else {V} (a b : option V) : option V := match a with Some x => Some x | None => b end.

Lemma or_else_assoc {V} (a b c : option V) : or_else (or_else a b) c = or_else a (or_else b c).
Proof. destruct a; reflexivity. Qed.

Lemma or_else_none {V} (a : option V) : or_else a None = a.
Proof. destruct a; reflexivity. Qed.

Lemma lastb_cons {V} n k (v : V) l :
  lastb n ((k, v) :: l) = or_else (lastb n l) (if String.eqb n k then Some v else None).
Proof. reflexivity. Qed.

Lemma lastb_app {V} n (a b : list (string * V)) : lastb n (a ++ b) = or_else (lastb n b) (lastb n a).
Proof.
  induction a as [|[k v] a IH]; cbn [app]; [symmetry; apply or_else_none|].
  rewrite !lastb_cons, IH. apply or_else_assoc.
Qed.

Lemma lastb_map {V W} (f : V -> W) n (l : list (string * V)) :
  lastb n (map (fun kv => (fst kv, f (snd kv))) l) = option_map f (lastb n l).
Proof.
  induction l as [|[k v] l IH]; cbn [map fst snd]; [reflexivity|].
  rewrite !lastb_cons, IH. destruct (lastb n l); [reflexivity|].
  destruct (String.eqb n k); reflexivity.
Qed.

Lemma lastb_some_in {V} n (l : list (string * V)) v : lastb n l = Some v -> In (n, v) l.
Proof.
  induction l as [|[k w] l IH]; [discriminate|]. rewrite lastb_cons.
  destruct (lastb n l); cbn [or_else]; [right; auto|].
  destruct (String.eqb_spec n k) as [<-|]; [|discriminate].
  intros [= ->]. left. reflexivity.
Qed.

Lemma lastb_none_notin {V} n (l : list (string * V)) : lastb n l = None -> forall v, ~ In (n, v) l.
Proof.
  induction l as [|[k w] l IH]; [intros _ v []|]. rewrite lastb_cons.
  destruct (lastb n l); [discriminate|]. cbn [or_else].
  destruct (String.eqb_spec n k) as [|K]; [discriminate|].
  intros _ v [[= <- _]|H]; [exact (K eq_refl)|exact (IH eq_refl v H)].
Qed.

Lemma lastb_filter {V} n (l : list (string * V)) :
  lastb n l = lastb n (filter (fun kv => String.eqb n (fst kv)) l).
Proof.
  induction l as [|[k v] l IH]; cbn [filter fst]; [reflexivity|]. rewrite lastb_cons, IH.
  destruct (String.eqb n k) eqn:K; [rewrite lastb_cons, K; reflexivity|apply or_else_none].
Qed.

(** one loop of inserts: the last binding wins, older contents stay visible for other names *)
Lemma lookup_insert n k v m :
  lookup n (insert k v m) = or_else (if String.eqb n k then Some v else None) (lookup n m).
Proof. unfold insert. cbn [lookup]. destruct (String.eqb n k); reflexivity. Qed.

Lemma lookup_fold_insert (kf pf : entry -> string) (c : gctor) n (l : list entry) (m0 : amap) :
  lookup n (fold_left (fun m e => insert (kf e) (mk c (pf e)) m) l m0)
  = or_else (lastb n (map (fun e => (kf e, mk c (pf e))) l)) (lookup n m0).
Proof.
  revert m0. induction l as [|e l IH]; intros m0; cbn [fold_left map]; [reflexivity|].
  rewrite IH, lookup_insert, lastb_cons, or_else_assoc. reflexivity.
Qed.

Definition arg_bindings (o : vecs) : list (string * tlaarg) :=
  map (fun e => (fst e, TString (snd e))) (v_str o) ++ map (fun e => (fst e, TImportStr (snd e))) (v_str_file o)
  ++ map (fun e => (fst e, TInlineCode (snd e))) (v_code o) ++ map (fun e => (fst e, TImport (snd e))) (v_code_file o).

Lemma doc_loops_lookup o n : lookup n (run_loops doc_loops o) = lastb n (arg_bindings o).
Proof.
  unfold run_loops, doc_loops, arg_bindings. cbn [fold_left run_loop vec_of].
  rewrite !lookup_fold_insert, !lastb_app, !or_else_assoc. cbn [lookup]. rewrite or_else_none. reflexivity.
Qed.

Lemma sem_arg_bindings o : map (fun kv => (fst kv, sem (snd kv))) (arg_bindings o) = spec_bindings o.
Proof.
  unfold arg_bindings, spec_bindings, bind_with. rewrite !map_app, !map_map. reflexivity.
Qed.

Definition last_wins (m : amap) (o : vecs) : Prop :=
  forall n, option_map sem (lookup n m) = lastb n (spec_bindings o).

Lemma doc_loops_last_wins o : last_wins (run_loops doc_loops o) o.
Proof. intros n. rewrite doc_loops_lookup, <- sem_arg_bindings, lastb_map. reflexivity. Qed.

Lemma tla_last_wins o : last_wins (cli_tla o) o.
Proof. unfold cli_tla. rewrite tla_loops_doc. apply doc_loops_last_wins. Qed.
Lemma ext_last_wins o : last_wins (cli_ext o) o.
Proof. unfold cli_ext. rewrite ext_loops_doc. apply doc_loops_last_wins. Qed.

Lemma last_wins_refines m o :
  last_wins m o ->
  forall n, match option_map sem (lookup n m) with
            | Some b => In (n, b) (spec_bindings o)
            | None => forall b, ~ In (n, b) (spec_bindings o)
            end.
Proof.
  intros H n. rewrite H. destruct (lastb n (spec_bindings o)) eqn:E.
  - apply lastb_some_in. exact E.
  - apply lastb_none_notin. exact E.
Qed.

Definition about (n : string) (o : vecs) := filter (fun kv => String.eqb n (fst kv)) (spec_bindings o).

Lemma last_wins_about m o n : last_wins m o -> option_map sem (lookup n m) = lastb n (about n o).
Proof. intros H. rewrite H. apply lastb_filter. Qed.

Lemma last_wins_unique m o n b :
  last_wins m o -> about n o = [(n, b)] -> option_map sem (lookup n m) = Some b.
Proof.
  intros H A. rewrite (last_wins_about _ _ _ H), A, lastb_cons, String.eqb_refl. reflexivity.
Qed.

Lemma last_wins_independent m o m' o' n :
  last_wins m o -> last_wins m' o' -> about n o = about n o' ->
  option_map sem (lookup n m) = option_map sem (lookup n m').
Proof.
  intros H H' A. rewrite (last_wins_about _ _ _ H), (last_wins_about _ _ _ H'), A. reflexivity.
Qed.

Fixpoint first_with {A} (has : A -> bool) (l : list A) : option A :=
  match l with [] => None | d :: t => if has d then Some d else first_with has t end.
Lemma first_with_app {A} (has : A -> bool) a b :
  first_with has (a ++ b) = or_else (first_with has a) (first_with has b).
Proof. induction a as [|d a IH]; cbn [app first_with]; [reflexivity|]. destruct (has d); [reflexivity|exact IH]. Qed.

Lemma first_with_none {A} (has : A -> bool) l :
  (forall x, In x l -> has x = false) -> first_with has l = None.
Proof.
  induction l as [|d l IH]; intros H; cbn [first_with]; [reflexivity|].
  rewrite (H d) by (left; reflexivity). apply IH. intros x Hx. apply H. right. exact Hx.
Qed.
