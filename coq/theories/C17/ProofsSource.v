(** C17 — source tie, lemmas: the translated functions of Gen/GenLoc.v equal the hand model. *)
From Coq Require Import String.
From Coq Require Import List NArith Lia.
From JrV Require Import C17.Model C17.Proofs C17.FixedProofs Gen.GenLoc C17.ModelSource.
Import ListNotations.
Open Scope N_scope.

(** GenLoc's prelude and Model.v's helpers are the same functions under two names *)
Lemma char_len_clen : forall c, char_len_utf8 c = clen c.
Proof. reflexivity. Qed.
Lemma str_len_blen : forall s, str_len s = blen s.
Proof. reflexivity. Qed.
Lemma char_indices_eq : forall s p, str_char_indices_from p s = char_indices_from p s.
Proof. reflexivity. Qed.
Lemma chars_enumerate_eq : forall s p, str_chars_enumerate_from p s = enumerate_from p s.
Proof. reflexivity. Qed.
Lemma vec_update_upd : @vec_update = @upd.
Proof. reflexivity. Qed.

Lemma to_of_cloc : forall c, to_cloc (of_cloc c) = c.
Proof. intros []. reflexivity. Qed.

Lemma upd_upd : forall {A} (f g : A -> A) l i, upd i f (upd i g l) = upd i (fun x => f (g x)) l.
Proof.
  intros A f g. induction l as [|x r IH]; intros i; [destruct i; reflexivity|].
  destruct i; cbn [upd]; [reflexivity|now rewrite IH].
Qed.

Lemma map_swap_combine : forall {A B} (a : list A) (b : list B),
  map (fun '(x, y) => (y, x)) (combine a b) = combine b a.
Proof.
  induction a as [|x a IH]; intros b; [destruct b; reflexivity|].
  destruct b; [reflexivity|]. cbn [combine map]. now rewrite IH.
Qed.
Lemma insert_ins : forall x l, insert_by_key (fun v : N * nat => fst v) x l = ins x l.
Proof. intros x. induction l as [|y r IH]; [reflexivity|]. cbn [insert_by_key ins]. now rewrite IH. Qed.
Lemma sort_eq : forall l, vec_sort_by_key (fun v : N * nat => fst v) l = fold_right ins [] l.
Proof.
  unfold vec_sort_by_key. induction l as [|x r IH]; [reflexivity|].
  cbn [fold_right]. rewrite IH. apply insert_ins.
Qed.

(** the two `for idx in ..` loops are one function, [set_le] *)
Lemma loop3_set_le : forall idxs out pos,
  map to_cloc (gen_offset_to_location_loop3 idxs out pos) = set_le idxs pos (map to_cloc out).
Proof.
  induction idxs as [|i r IH]; intros out pos; [reflexivity|].
  cbn [gen_offset_to_location_loop3 set_le]. rewrite IH, vec_update_upd. f_equal.
  apply map_upd. intros []. reflexivity.
Qed.
Lemma loop4_set_le : forall idxs out fe,
  map to_cloc (gen_offset_to_location_loop4 idxs out fe) = set_le idxs fe (map to_cloc out).
Proof. exact loop3_set_le. Qed.

(** `while let Some(x) = offset_map.last()` is [pop true] (Vec from the back, list from the front) *)
Lemma vec_last_rev_cons : forall {A} (x : A) l, vec_last (rev (x :: l)) = Some x.
Proof. intros. unfold vec_last. now rewrite rev_involutive. Qed.
Lemma vec_pop_rev_cons : forall {A} (x : A) l, vec_pop (rev (x :: l)) = rev l.
Proof. intros. unfold vec_pop. now rewrite rev_involutive. Qed.

Lemma loop2_pop : forall om fuel line col out pend ls pos omv' out' pend',
  (length om < fuel)%nat ->
  gen_offset_to_location_loop2 fuel line col (rev om) out pend ls pos = (omv', out', pend') ->
  exists om', omv' = rev om' /\
    pop true pos line col ls om pend (map to_cloc out) = (om', pend', map to_cloc out').
Proof.
  induction om as [|[o idx] om IH]; intros fuel line col out pend ls pos omv' out' pend' Hf H;
    (destruct fuel; [inversion Hf|]).
  - cbn in H. injection H as <- <- <-. exists []. split; reflexivity.
  - cbn [gen_offset_to_location_loop2] in H. rewrite vec_last_rev_cons in H.
    cbn [pop fst snd] in *.
    destruct (N.eqb o pos); cbn [negb] in H.
    + rewrite vec_pop_rev_cons in H. apply IH in H; [|cbn [length] in Hf; lia].
      destruct H as [om' [-> H]]. exists om'. split; [reflexivity|].
      rewrite <- H. unfold vec_push. f_equal.
      (* the four field assignments are the model's one record write *)
      rewrite vec_update_upd, !upd_upd. symmetry. apply map_upd. intros []. reflexivity.
    + injection H as <- <- <-. exists ((o, idx) :: om). split; reflexivity.
Qed.

(** the `for (pos, ch) in ..` loop is [go true] *)
Lemma loop1_go : forall items line col maxo om out pend ls l' c' omv' out' pend' ls',
  gen_offset_to_location_loop1 items line col maxo (rev om) out pend ls = (l', c', omv', out', pend', ls') ->
  go true items maxo line col ls om pend (map to_cloc out) = (pend', map to_cloc out').
Proof.
  induction items as [|[pos ch] rest IH]; intros line col maxo om out pend ls l' c' omv' out' pend' ls' H.
  - cbn in H. injection H as <- <- <- <- <- <-. reflexivity.
  - cbn [gen_offset_to_location_loop1] in H. cbn [go].
    destruct (gen_offset_to_location_loop2 (S (length (rev om))) line (N.add col 1) (rev om) out pend ls pos)
      as [[omv1 out1] pend1] eqn:E2.
    apply loop2_pop in E2; [|rewrite rev_length; lia].
    destruct E2 as [om1 [-> E2]]. rewrite E2.
    destruct (N.eqb ch 10).
    + rewrite <- loop3_set_le.
      destruct (N.eqb pos (N.add maxo 1)).
      * injection H as <- <- <- <- <- <-. reflexivity.
      * apply IH in H. exact H.
    + apply IH in H. exact H.
Qed.

Lemma map_to_cloc_repeat : forall n, map to_cloc (repeat default_CodeLocation n) = repeat zero_loc n.
Proof. induction n; [reflexivity|]. cbn [repeat map]. now rewrite IHn. Qed.

Lemma source_offset_to_location : forall file offs,
  src_offset_to_location file offs = offset_to_location Cur file offs.
Proof.
  intros file offs. unfold src_offset_to_location, gen_offset_to_location, offset_to_location.
  destruct offs as [|o0 offs']; [reflexivity|].
  cbn [slice_is_empty]. set (offs := o0 :: offs') in *.
  unfold vec_reverse, slice_enumerate, iter_max.
  rewrite (map_swap_combine (seq 0 (length offs)) offs), sort_eq.
  fold (sort_offsets offs).
  destruct (gen_offset_to_location_loop1 _ _ _ _ _ _ _ _) as [[[[[l' c'] omv'] out'] pend'] ls'] eqn:E.
  apply loop1_go in E. rewrite map_to_cloc_repeat in E.
  unfold str_char_indices in E. rewrite char_indices_eq, str_len_blen in E.
  cbn [multi_of items_of file_end_of]. rewrite E.
  rewrite loop4_set_le, str_len_blen. reflexivity.
Qed.

Lemma source_print_code_location : forall s e,
  gen_print_code_location s e = render_print (print_loc (to_cloc s) (to_cloc e)).
Proof.
  intros s e. unfold gen_print_code_location, print_loc, to_cloc. cbn [c_line c_col].
  destruct (N.eqb (g_line s) (g_line e)); [destruct (N.eqb (g_column s) (g_column e))|]; reflexivity.
Qed.

Lemma nth_map_to_cloc_i : forall i l, to_cloc (nth i l default_CodeLocation) = nth i (map to_cloc l) zero_loc.
Proof. intros i l. change zero_loc with (to_cloc default_CodeLocation). now rewrite map_nth. Qed.
Lemma nth_map_to_cloc : forall l, to_cloc (nth 0%nat l default_CodeLocation) = nth 0%nat (map to_cloc l) zero_loc.
Proof. exact (nth_map_to_cloc_i 0). Qed.

Lemma nth_source file offs i :
  nth i (offset_to_location Cur file offs) zero_loc =
  to_cloc (nth i (gen_offset_to_location file offs) default_CodeLocation).
Proof. rewrite <- source_offset_to_location. symmetry. apply nth_map_to_cloc_i. Qed.

(** "é😀\n€x" = bytes 0..1 é, 2..5 😀, 6 LF, 7..9 €, 10 x; offsets at every character boundary, a duplicate,
    out of order, end of file *)
Example ex_mapper_multibyte :
  map to_cloc (gen_offset_to_location [233; 128512; 10; 8364; 120] [10; 2; 11; 2; 0; 7; 6])
  = [mkloc 10 2 3 7 11; mkloc 2 1 3 0 6; mkloc 11 2 4 7 11; mkloc 2 1 3 0 6; mkloc 0 1 2 0 6;
     mkloc 7 2 2 7 11; mkloc 6 1 4 0 6].
Proof. vm_compute. reflexivity. Qed.
Example ex_mapper_multibyte_is_model :
  offset_to_location Cur [233; 128512; 10; 8364; 120] [10; 2; 11; 2; 0; 7; 6]
  = [mkloc 10 2 3 7 11; mkloc 2 1 3 0 6; mkloc 11 2 4 7 11; mkloc 2 1 3 0 6; mkloc 0 1 2 0 6;
     mkloc 7 2 2 7 11; mkloc 6 1 4 0 6].
Proof. rewrite <- source_offset_to_location. exact ex_mapper_multibyte. Qed.
(** CR LF: CR is an ordinary character of the line *)
Example ex_mapper_crlf :
  map to_cloc (gen_offset_to_location [97; 13; 10; 233; 13; 10] [2; 3; 5; 7])
  = [mkloc 2 1 4 0 2; mkloc 3 2 2 3 6; mkloc 5 2 3 3 6; mkloc 7 3 2 7 7].
Proof. vm_compute. reflexivity. Qed.
Example ex_boundary : boundary [233; 128512; 10; 8364; 120] 7 /\ boundary [233; 128512; 10; 8364; 120] 10.
Proof. split; [exists 3%nat|exists 4%nat]; split; (cbn; lia) || reflexivity. Qed.
Example ex_reported_multibyte :
  let locs := gen_offset_to_location [233; 128512; 10; 8364; 120] [7; 10] in
  gen_print_code_location (nth 0 locs default_CodeLocation) (nth 1 locs default_CodeLocation)
  = [("{}:{}-{}"%string, [2; 1; 3])].
Proof. vm_compute. reflexivity. Qed.
Example ex_js_multibyte :
  gen_js_args (gen_offset_to_location [233; 128512; 10; 8364; 120] (gen_js_query 10 11)) = [2; 2].
Proof. vm_compute. reflexivity. Qed.
(** syntax error at end of file: clamped to the last byte, column + 1 *)
Example ex_syntax_error_eof :
  src_syntax_error_print [233; 10; 120; 121] 5 = [("{}:{}"%string, [2; 3])]
  /\ src_syntax_error_print [233; 10; 120; 121] 3 = [("{}:{}"%string, [2; 1])].
Proof. vm_compute. split; reflexivity. Qed.
