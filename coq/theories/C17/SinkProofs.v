(** C17 — lemmas: the rowan Sink emits exactly the lexemes. *)
From Coq Require Import List Arith Bool Lia.
From JrV Require Import C17.Model.
Import ListNotations.

Section SinkProofs.
  Context {T : Type}.
  Notation lexeme := (@lexeme T).
  Notation sstate := (@sstate T).

  (** the next lexeme, if there is one, is not trivia *)
  Definition hd_ok (todo : list lexeme) : Prop :=
    match todo with (true, _) :: _ => False | _ => True end.

  (** the leaves are the lexemes before the offset, [todo] those from it on; depth and the eat
      flag play no part *)
  Definition synced (lx : list lexeme) (st : sstate) (todo : list lexeme) : Prop :=
    lx = s_leaves st ++ todo /\ s_off st = length (s_leaves st).

  Lemma synced_hd lx st l todo : synced lx st (l :: todo) -> nth_error lx (s_off st) = Some l.
  Proof. intros [-> ->]. rewrite nth_error_app2, Nat.sub_diag; reflexivity. Qed.

  Lemma synced_next lx st l todo d e :
    synced lx st (l :: todo) -> synced lx (mkst (S (s_off st)) d e (s_leaves st ++ [l])) todo.
  Proof.
    intros [E O]. split; cbn [s_leaves s_off].
    - rewrite <- app_assoc. exact E.
    - rewrite app_length, O. apply eq_sym, Nat.add_1_r.
  Qed.

  Lemma count_nontrivia_cons (l : lexeme) r :
    count_nontrivia (l :: r) = (if fst l then 0 else 1) + count_nontrivia r.
  Proof. destruct l as [[|] t]; reflexivity. Qed.

  Lemma count_tokens_cons ev evs :
    count_tokens (ev :: evs) = (match ev with EToken => 1 | _ => 0 end) + count_tokens evs.
  Proof. destruct ev; reflexivity. Qed.

  Lemma skip_ws_spec : forall rest leaves : list lexeme, exists leaves' rest',
    skip_ws rest (length leaves) leaves = (length leaves', leaves') /\
    leaves ++ rest = leaves' ++ rest' /\ hd_ok rest' /\ count_nontrivia rest' = count_nontrivia rest.
  Proof.
    induction rest as [|[[|] t] r IH]; intros leaves.
    - exists leaves, []. repeat split.
    - destruct (IH (leaves ++ [(true, t)])) as (leaves' & rest' & E & A & H).
      exists leaves', rest'. cbn [skip_ws]. rewrite app_length, Nat.add_1_r in E.
      rewrite <- app_assoc in A. auto.
    - exists leaves, ((false, t) :: r). repeat split.
  Qed.

  Lemma do_skip_eq lx (st : sstate) :
    do_skip lx st = let p := skip_ws (skipn (s_off st) lx) (s_off st) (s_leaves st) in
                    mkst (fst p) (s_depth st) (s_eat st) (snd p).
  Proof. unfold do_skip. destruct (skip_ws _ _ _). reflexivity. Qed.

  Lemma do_skip_spec lx (st : sstate) todo : synced lx st todo ->
    exists todo', synced lx (do_skip lx st) todo' /\ hd_ok todo' /\
                  count_nontrivia todo' = count_nontrivia todo.
  Proof.
    intros [E O].
    assert (Hk : skipn (s_off st) lx = todo).
    { rewrite O, E, skipn_app, skipn_all, Nat.sub_diag. reflexivity. }
    rewrite do_skip_eq, Hk, O.
    destruct (skip_ws_spec todo (s_leaves st)) as (leaves' & todo' & -> & A & H).
    exists todo'. split; [split; [rewrite E; exact A|reflexivity]|exact H].
  Qed.

  Lemma open_nodes_nz (lx : list lexeme) : forall n (st : sstate), s_depth st <> 0 ->
    open_nodes lx n st = mkst (s_off st) (s_depth st + n) (s_eat st) (s_leaves st).
  Proof.
    induction n; intros st H; simpl.
    - destruct st; simpl. f_equal. lia.
    - destruct (s_depth st) as [|d] eqn:E; [congruence|]. simpl.
      rewrite IHn; simpl; [|lia]. f_equal. lia.
  Qed.

  (** `Start` skips whitespace once: before the first node, or after it if that node is the root *)
  Lemma step_start lx (st : sstate) k :
    sink_step lx st (EStart (S k)) =
    Some (let s := do_skip lx st in mkst (s_off s) (s_depth st + S k) false (s_leaves s)).
  Proof.
    cbn [sink_step]. destruct (Nat.eqb_spec (s_depth st) 0) as [Z|NZ].
    - cbn [open_nodes]. rewrite Z. cbn [s_depth Nat.eqb].
      rewrite open_nodes_nz, !do_skip_eq by (rewrite do_skip_eq; discriminate). reflexivity.
    - rewrite open_nodes_nz, !do_skip_eq by (rewrite do_skip_eq; exact NZ). reflexivity.
  Qed.

  Lemma close_nodes_lt (lx : list lexeme) : forall n (st : sstate), n < s_depth st ->
    close_nodes lx n st = mkst (s_off st) (s_depth st - n) (s_eat st) (s_leaves st).
  Proof.
    induction n; intros st H; simpl.
    - destruct st; simpl. f_equal. lia.
    - destruct (s_depth st) as [|[|d]] eqn:E; try lia. cbn [Nat.eqb].
      rewrite IHn; cbn [s_off s_depth s_eat s_leaves]; rewrite E; cbn [pred]; [|lia]. f_equal.
  Qed.

  (** closing all open nodes skips whitespace once, before the root closes *)
  Lemma close_nodes_root (lx : list lexeme) : forall n (st : sstate), s_depth st = S n ->
    close_nodes lx (S n) st = let s := do_skip lx st in mkst (s_off s) 0 (s_eat st) (s_leaves s).
  Proof.
    induction n as [|n IH]; intros st E.
    - cbn [close_nodes]. rewrite E, do_skip_eq. cbn. rewrite E. reflexivity.
    - remember (S n) as m. cbn [close_nodes]. subst m. rewrite E. cbn [Nat.eqb].
      rewrite IH, !do_skip_eq by (cbn [s_depth]; rewrite E; reflexivity). reflexivity.
  Qed.

  Lemma step_finish lx (st : sstate) n : 0 < n <= s_depth st ->
    sink_step lx st (EFinish n) =
    Some (if Nat.eqb n (s_depth st)
          then let s := do_skip lx st in mkst (s_off s) 0 true (s_leaves s)
          else mkst (s_off st) (s_depth st - n) true (s_leaves st)).
  Proof.
    intros H. cbn [sink_step]. destruct (Nat.eqb_spec n (s_depth st)) as [->|Ne].
    - destruct (s_depth st) eqn:E; [lia|]. rewrite close_nodes_root by exact E. reflexivity.
    - rewrite close_nodes_lt by lia. reflexivity.
  Qed.

  Lemma wf_after_root : forall evs, wf_events 0 true evs = true -> count_tokens evs = 0.
  Proof.
    induction evs as [|[[|n]| |[|n]|] r IH]; intros H; try discriminate H; auto.
  Qed.

  (** Sink::finish: as many counting lexemes ahead as `Token` events, one of them next when
      none is skipped, none after the root *)
  Lemma sink_run_lossless (lx : list lexeme) : forall evs (st : sstate) started todo,
    wf_events (s_depth st) started evs = true ->
    synced lx st todo -> count_nontrivia todo = count_tokens evs ->
    (s_depth st <> 0 -> started = true) ->
    (s_depth st <> 0 -> s_eat st = false -> hd_ok todo) ->
    (started = true -> s_depth st = 0 -> todo = []) ->
    exists st', sink_run lx st evs = Some st' /\ s_leaves st' = lx.
  Proof.
    induction evs as [|ev r IH]; intros st started todo Hwf Hs C S1 S2 S3.
    { apply andb_prop in Hwf. destruct Hwf as [-> Hd]. apply Nat.eqb_eq in Hd.
      exists st. split; [reflexivity|]. destruct Hs as [-> _].
      rewrite (S3 eq_refl Hd). apply eq_sym, app_nil_r. }
    rewrite count_tokens_cons in C. cbn [sink_run].
    destruct ev as [[|k]| |[|k]|]; try discriminate Hwf;
      cbn [wf_events Nat.eqb negb andb] in Hwf; cbn [Nat.add] in C.
    - apply andb_prop in Hwf. destruct Hwf as [_ Hr]. rewrite step_start.
      destruct (do_skip_spec lx st todo Hs) as (todo' & Hs' & H & C').
      apply (IH _ true todo'); cbn [s_depth s_eat]; auto; [congruence|lia].
    - apply andb_prop in Hwf. destruct Hwf as [Hd Hr].
      apply negb_true_iff, Nat.eqb_neq in Hd. cbn [sink_step].
      set (st1 := if s_eat st then do_skip lx st else st).
      assert (D1 : s_depth st1 = s_depth st).
      { unfold st1. destruct (s_eat st); [rewrite do_skip_eq|]; reflexivity. }
      assert (exists todo1, synced lx st1 todo1 /\ hd_ok todo1 /\
                            count_nontrivia todo1 = count_nontrivia todo)
        as ([|[[|] t] todo2] & Hs1 & H & C1).
      { unfold st1. destruct (s_eat st); [apply do_skip_spec, Hs|exists todo; auto]. }
      + rewrite C in C1. discriminate C1.
      + contradiction.
      + rewrite (synced_hd _ _ _ _ Hs1).
        apply (IH _ started todo2); cbn [s_depth s_eat]; rewrite ?D1; auto.
        * apply synced_next, Hs1.
        * rewrite count_nontrivia_cons, C in C1. injection C1 as <-. reflexivity.
        * discriminate.
        * contradiction.
    - apply andb_prop in Hwf. destruct Hwf as [Hle Hr]. apply Nat.leb_le in Hle.
      rewrite step_finish by lia. rewrite (S1 ltac:(lia)) in *.
      destruct (Nat.eqb_spec (S k) (s_depth st)) as [Eq|Ne].
      + (* the root closes *)
        rewrite <- Eq, Nat.sub_diag in Hr.
        destruct (do_skip_spec lx st todo Hs) as (todo' & Hs' & H & C').
        rewrite C in C'.
        apply (IH _ true todo'); cbn [s_depth s_eat]; auto; try discriminate.
        intros _ _. rewrite (wf_after_root _ Hr) in C'.
        destruct todo' as [|[[|] t] ?]; [reflexivity|contradiction|discriminate C'].
      + apply (IH _ true todo); cbn [s_depth s_eat]; auto; try discriminate; lia.
    - exact (IH _ _ _ Hwf Hs C S1 S2 S3).
  Qed.
End SinkProofs.

(** non-vacuity: `{ a: 1 } // c` — SOURCE_FILE( EXPR( OBJ( `{` ws FIELD( a `:` ws 1 ) ws `}` ) ) ws comment ) *)
Example sink_example :
  let lx := [(false, 1); (true, 2); (false, 3); (false, 4); (true, 5); (false, 6); (true, 7); (false, 8); (true, 9); (true, 10)] in
  let evs := [EStart 1; EStart 2; EToken; EStart 1; EToken; EToken; ENoop; EToken; EFinish 1; EToken; EFinish 2; EFinish 1] in
  wf_events 0 false evs = true /\ count_tokens evs = count_nontrivia lx /\ sink lx evs = Some lx.
Proof. vm_compute. repeat split. Qed.
