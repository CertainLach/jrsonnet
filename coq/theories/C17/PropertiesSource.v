(** C17 — source tie.  Gen/GenLoc.v is written by translator/gens/locmap.py from location.rs and
    trace/mod.rs on every run.  `C17_model_is_translated_source_*`: the hand model IS the translated
    code; `C17_source_*`: so the translated code meets the SPEC. *)
From Coq Require Import String.
From Coq Require Import List NArith Bool.
From JrV Require Import C17.Model C17.FixedProofs Gen.GenLoc C17.ModelSource C17.ProofsSource.
Import ListNotations.
Open Scope N_scope.

(** offset_to_location: for EVERY file and EVERY offset list the function translated from
    location.rs gives the hand model's answer, all five fields *)
Theorem C17_model_is_translated_source_mapper :
  forall file offs, map to_cloc (gen_offset_to_location file offs) = offset_to_location Cur file offs.
Proof. exact source_offset_to_location. Qed.
Print Assumptions C17_model_is_translated_source_mapper.

(** print_code_location: the translated write! calls are those of the model's [print_loc] *)
Theorem C17_model_is_translated_source_printer :
  forall s e, gen_print_code_location s e = render_print (print_loc (to_cloc s) (to_cloc e)).
Proof. exact source_print_code_location. Qed.
Print Assumptions C17_model_is_translated_source_printer.

(** JsFormat::write_trace: the two numbers printed are the model's [print_js] of the first location. *)
Theorem C17_model_is_translated_source_jsformat :
  forall locs, gen_js_args locs =
    [fst (print_js (to_cloc (nth 0%nat locs default_CodeLocation)));
     snd (print_js (to_cloc (nth 0%nat locs default_CodeLocation)))].
Proof. intros. reflexivity. Qed.
Print Assumptions C17_model_is_translated_source_jsformat.

(** CompactFormat::write_trace, ImportSyntaxError branch: translated branch o mapper o printer =
    the model's [syntax_error_print] *)
Theorem C17_model_is_translated_source_syntax_error :
  forall file offset,
    src_syntax_error_print file offset = render_print (syntax_error_print Cur file offset).
Proof.
  intros file offset. unfold src_syntax_error_print, syntax_error_print, gen_syntax_error_location.
  rewrite source_print_code_location, str_len_blen. f_equal.
  pose proof (source_offset_to_location file) as HS. unfold src_offset_to_location in HS.
  destruct (N.leb (blen file) offset).
  - rewrite <- HS.
    destruct (gen_offset_to_location file [N.sub (blen file) 1]) as [|l r]; reflexivity.
  - rewrite <- HS.
    destruct (gen_offset_to_location file [offset]) as [|l r]; reflexivity.
Qed.
Print Assumptions C17_model_is_translated_source_syntax_error.

(** the TRANSLATED mapper meets the SPEC, as [C17_loc_general] says of the model *)
Theorem C17_source_loc_general :
  forall file offs i o,
    (forall o', In o' offs -> exists k, (k <= length file)%nat /\ o' = blen (firstn k file)) ->
    nth_error offs i = Some o ->
    let l := nth i (gen_offset_to_location file offs) default_CodeLocation in
    (g_offset l, g_line l, g_column l, g_line_start_offset l) =
    (o, spec_line (encode file) o, spec_col (encode file) o + 1, spec_line_start (encode file) o).
Proof.
  intros file offs i o Hb Hn l.
  pose proof (loc_general file offs i o Hb Hn) as H. rewrite nth_source in H. exact H.
Qed.
Print Assumptions C17_source_loc_general.

(** translated mapper + print_code_location: a one-line span [a, b) is written by one write!
    starting with the specified line and 1-based column of a *)
Theorem C17_source_reported_position :
  forall file a b,
    boundary file a -> boundary file b ->
    spec_line (encode file) a = spec_line (encode file) b ->
    let locs := gen_offset_to_location file [a; b] in
    exists fmt rest,
      gen_print_code_location (nth 0 locs default_CodeLocation) (nth 1 locs default_CodeLocation)
      = [(fmt, spec_line (encode file) a :: spec_col (encode file) a :: rest)].
Proof.
  intros file a b Ha Hb Hl locs.
  pose proof (reported_position file a b Ha Hb Hl) as H. cbv zeta in H.
  rewrite !nth_source in H. fold locs in H.
  rewrite source_print_code_location.
  destruct (print_loc _ _) as [[l c] [[[l2|] c2]|]]; cbn [printed_line printed_col fst snd] in H;
    destruct H as [<- <-]; cbn [render_print]; eexists; eexists; reflexivity.
Qed.
Print Assumptions C17_source_reported_position.

(** translated mapper + translated JsFormat arguments: `(path:LINE:COLUMN)` of the span start. *)
Theorem C17_source_jsformat_position :
  forall file a b,
    boundary file a -> boundary file b ->
    gen_js_args (gen_offset_to_location file (gen_js_query a b)) =
    [spec_line (encode file) a; spec_col (encode file) a].
Proof.
  intros file a b Ha Hb.
  pose proof (jsformat_position file a b Ha Hb) as H. cbv zeta in H. rewrite nth_source in H.
  rewrite C17_model_is_translated_source_jsformat. unfold gen_js_query. rewrite H. reflexivity.
Qed.
Print Assumptions C17_source_jsformat_position.
