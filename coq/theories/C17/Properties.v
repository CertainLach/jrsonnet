(** C17 — the property theorems (statements pinned in Pins.v).  [Cur] transliterates the code as
    it is (since /repo 6f9363a, 2fd7ca2), [Old] the code before. *)
From Coq Require Import List NArith Bool.
From JrV Require Import C17.Model C17.Proofs C17.SinkProofs C17.FixedProofs.
Import ListNotations.
Open Scope N_scope.

(** offset_to_location, for EVERY file and EVERY query of character boundaries (any order,
    duplicates, end of file): each answer carries the offset, the specified line, column (+1, the
    printers subtract it) and line start. *)
Theorem C17_loc_general :
  forall file offs i o,
    (forall o', In o' offs -> exists k, (k <= length file)%nat /\ o' = blen (firstn k file)) ->
    nth_error offs i = Some o ->
    core (nth i (offset_to_location Cur file offs) zero_loc) =
    (o, spec_line (encode file) o, spec_col (encode file) o + 1, spec_line_start (encode file) o).
Proof. exact loc_general. Qed.
Print Assumptions C17_loc_general.

(** print_code_location shows the start line and the 1-based start column of a one-line span *)
Theorem C17_print_span :
  forall s e, known_multiline s e = false ->
    printed_line (print_loc s e) = c_line s /\ printed_col (print_loc s e) = c_col s - 1.
Proof. exact print_same_line. Qed.
Print Assumptions C17_print_span.

(** FINDING C17-print-multiline-span: for a span over several lines the start column is never printed *)
Theorem C17_print_span_refuted :
  exists s e, known_multiline s e = true /\ c_col s <> c_col e /\
              printed_col (print_loc s e) <> c_col s - 1.
Proof.
  exists (mkloc 2 1 4 0 5), (mkloc 8 2 3 6 9). vm_compute. repeat split; discriminate.
Qed.
Print Assumptions C17_print_span_refuted.

(** mapper + CompactFormat printer: the `L:C` of a trace line is the specified line and column
    of the span's first byte, for every one-line span *)
Theorem C17_reported_position :
  forall file a b,
    boundary file a -> boundary file b ->
    spec_line (encode file) a = spec_line (encode file) b ->
    let locs := offset_to_location Cur file [a; b] in
    let p := print_loc (nth 0 locs zero_loc) (nth 1 locs zero_loc) in
    printed_line p = spec_line (encode file) a /\ printed_col p = spec_col (encode file) a.
Proof. exact reported_position. Qed.
Print Assumptions C17_reported_position.

(** mapper + JsFormat printer (libjsonnet trace format 1): line and column of the construct *)
Theorem C17_jsformat_position :
  forall file a b,
    boundary file a -> boundary file b ->
    let locs := offset_to_location Cur file [a; b] in
    print_js (nth 0 locs zero_loc) = (spec_line (encode file) a, spec_col (encode file) a).
Proof. exact jsformat_position. Qed.
Print Assumptions C17_jsformat_position.

(** the token loop over ANY one-token matcher honouring logos' contract tiles the input *)
Theorem C17_lex_tiles :
  forall (K : Type) (matcher : list N -> option (K * N)) input,
    matcher_ok matcher ->
    exists toks, lex_loop matcher (length input) 0 input = Some toks /\
                 tiles toks (N.of_nat (length input)).
Proof. intros K matcher input H. apply lex_loop_tiles; auto. Qed.
Print Assumptions C17_lex_tiles.

(** a tiling token list reproduces the input: no byte lost, none twice *)
Theorem C17_tiles_concat :
  forall (K : Type) input (toks : list (K * N * N)),
    tiles toks (N.of_nat (length input)) ->
    concat (map (fun t => slice input (snd (fst t)) (snd t)) toks) = input.
Proof. intros K input toks H. exact (tiles_concat input toks 0 H). Qed.
Print Assumptions C17_tiles_concat.

(** Sink::finish, for EVERY lexeme list and EVERY single-rooted event list with one Token per
    non-trivia lexeme: no panic, and the leaves are exactly the lexemes, in order *)
Theorem C17_sink_lossless :
  forall (T : Type) (lx : list (bool * T)) (evs : list event),
    wf_events 0 false evs = true -> count_tokens evs = count_nontrivia lx ->
    sink lx evs = Some lx.
Proof.
  intros T lx evs Hwf Hc. unfold sink.
  destruct (sink_run_lossless lx evs (mkst 0 0 false []) false lx Hwf) as (st' & -> & ->);
    cbn [s_depth]; try contradiction; auto; [split; reflexivity|discriminate].
Qed.
Print Assumptions C17_sink_lossless.

(** HISTORICAL: [Old], offset_to_location BEFORE /repo 6f9363a; why that commit was needed.
    Not tied to the code. *)

(** the class C17-loc-char-index-vs-byte-offset of the pre-6f9363a code *)
Theorem C17_loc_old_general_refuted :
  exists file offs i o,
    NoDup offs /\ (forall o', In o' offs -> o' <= blen file) /\ nth_error offs i = Some o /\
    known_multibyte file offs = true /\
    c_line (nth i (offset_to_location Old file offs) zero_loc) <> spec_line (encode file) o.
Proof.
  (* "é\na\nb", byte offset 2 = the first newline (line 1); the code answers for character 2 *)
  exists [233; 10; 97; 10; 98], [2], 0%nat, 2. repeat split.
  - repeat constructor; simpl; tauto.
  - intros o' [H|[]]. subst. vm_compute. discriminate.
  - vm_compute. discriminate.
Qed.
Print Assumptions C17_loc_old_general_refuted.

(** same class: an unmatched offset blocks the map; no answer is filled in *)
Theorem C17_loc_old_unmatched_refuted :
  exists file offs, NoDup offs /\ (forall o', In o' offs -> o' <= blen file) /\
    offset_to_location Old file offs = [zero_loc; zero_loc].
Proof.
  (* "ééééé\nerror" : span of `error` = bytes 11..16, the file has only 11 characters *)
  exists [233; 233; 233; 233; 233; 10; 101; 114; 114; 111; 114], [11; 16]. repeat split.
  - repeat constructor; simpl; intuition discriminate.
  - intros o' [H|[H|[]]]; subst; vm_compute; discriminate.
Qed.
Print Assumptions C17_loc_old_unmatched_refuted.

(** the class C17-loc-duplicate-offsets of the pre-6f9363a code *)
Theorem C17_loc_old_duplicates_refuted :
  exists file offs i o,
    forallb is_ascii file = true /\ (forall o', In o' offs -> o' <= blen file) /\
    nth_error offs i = Some o /\ known_dup offs = true /\
    c_line (nth i (offset_to_location Old file offs) zero_loc) <> spec_line (encode file) o.
Proof.
  exists [97; 98], [1; 1], 1%nat, 1. repeat split.
  - intros o' [H|[H|[]]]; subst; vm_compute; discriminate.
  - vm_compute. discriminate.
Qed.
Print Assumptions C17_loc_old_duplicates_refuted.
