(** C17 — lemmas: offset_to_location as it is in the code (model [Cur], /repo 6f9363a)
    meets the specification for every file and every query on character boundaries; the
    printers on top of it. *)
From Coq Require Import List NArith Lia Sorting.Sorted.
From JrV Require Import C17.Model C17.Proofs.
Import ListNotations.
Open Scope N_scope.

Lemma nonl_high b : 128 <= b -> negb (b =? 10) = true.
Proof. intros H. destruct (N.eqb_spec b 10); auto. lia. Qed.

Definition boundary (file : list N) (o : N) : Prop :=
  exists k, (k <= length file)%nat /\ o = blen (firstn k file).

Lemma cur_items_split file k :
  exists c post, items_of Cur file =
                 char_indices_from 0 (firstn k file) ++ (blen (firstn k file), c) :: post.
Proof.
  pose proof (firstn_skipn k file) as E. destruct (skipn k file) as [|c r].
  - rewrite app_nil_r in E. rewrite E. exists 32, []. reflexivity.
  - exists c. eexists. rewrite <- E at 1. cbn [items_of]. rewrite ci_app, <- app_assoc. reflexivity.
Qed.

Lemma cur_sorted file : StronglySorted N.lt (map fst (items_of Cur file)).
Proof. apply ci_sorted. lia. Qed.

Lemma loc_general file offs i o :
  (forall o', In o' offs -> boundary file o') ->
  nth_error offs i = Some o ->
  core (nth i (offset_to_location Cur file offs) zero_loc) =
  (o, spec_line (encode file) o, spec_col (encode file) o + 1, spec_line_start (encode file) o).
Proof.
  intros Hb.
  apply (otl_spec Cur file offs (fun o => (o, spec_line (encode file) o, spec_col (encode file) o + 1,
                                          spec_line_start (encode file) o)));
    [discriminate|apply cur_sorted|].
  intros o' Hi. destruct (Hb _ Hi) as (k & _ & ->).
  destruct (cur_items_split file k) as (c & post & Hsplit).
  exists (char_indices_from 0 (firstn k file)), c, post. split; [exact Hsplit|apply scan_boundary].
Qed.

(** non-vacuity: 1-4 byte characters, a duplicate, out of order, offset 0 and the end of the file *)
Example loc_general_example :
  let file := [233; 8364; 10; 128512; 97; 10; 98] in   (* "é€\n😀a\nb" *)
  (forall o', In o' [10; 5; 10; 13; 6; 0] -> boundary file o') /\
  map core (offset_to_location Cur file [10; 5; 10; 13; 6; 0]) =
  [(10, 2, 3, 6); (5, 1, 4, 0); (10, 2, 3, 6); (13, 3, 3, 12); (6, 2, 2, 6); (0, 1, 2, 0)].
Proof.
  split; [|vm_compute; reflexivity].
  intros o' H. simpl in H.
  destruct H as [<-|[<-|[<-|[<-|[<-|[<-|[]]]]]]].
  - exists 4%nat. split; [simpl; lia|reflexivity].
  - exists 2%nat. split; [simpl; lia|reflexivity].
  - exists 4%nat. split; [simpl; lia|reflexivity].
  - exists 7%nat. split; [simpl; lia|reflexivity].
  - exists 3%nat. split; [simpl; lia|reflexivity].
  - exists 0%nat. split; [simpl; lia|reflexivity].
Qed.

Lemma span_locs file a b :
  boundary file a -> boundary file b ->
  let locs := offset_to_location Cur file [a; b] in
  core (nth 0 locs zero_loc) = (a, spec_line (encode file) a, spec_col (encode file) a + 1, spec_line_start (encode file) a) /\
  core (nth 1 locs zero_loc) = (b, spec_line (encode file) b, spec_col (encode file) b + 1, spec_line_start (encode file) b).
Proof.
  intros Ha Hb locs.
  assert (H : forall o', In o' [a; b] -> boundary file o') by (intros o' [<-|[<-|[]]]; auto).
  split; [apply (loc_general file [a; b] 0 a H eq_refl)|apply (loc_general file [a; b] 1 b H eq_refl)].
Qed.

Lemma reported_position file a b :
  boundary file a -> boundary file b ->
  spec_line (encode file) a = spec_line (encode file) b ->
  let locs := offset_to_location Cur file [a; b] in
  let p := print_loc (nth 0 locs zero_loc) (nth 1 locs zero_loc) in
  printed_line p = spec_line (encode file) a /\ printed_col p = spec_col (encode file) a.
Proof.
  intros Ha Hb Hl locs p. destruct (span_locs file a b Ha Hb) as [H0 H1].
  rewrite <- Hl in H1. exact (print_mapped _ _ _ _ _ _ _ _ _ H0 H1).
Qed.

(** [b] is there because the query is [a; b]: an unmatched offset would block the larger ones *)
Lemma jsformat_position file a b :
  boundary file a -> boundary file b ->
  let locs := offset_to_location Cur file [a; b] in
  print_js (nth 0 locs zero_loc) = (spec_line (encode file) a, spec_col (encode file) a).
Proof.
  intros Ha Hb locs. destruct (span_locs file a b Ha Hb) as [H0 _]. fold locs in H0.
  unfold core in H0. injection H0 as E1 E2 E3 E4. unfold print_js. rewrite E2, E3. f_equal. lia.
Qed.

(** non-vacuity: "// é\nerror \"é\"" , span of `error` = [6, 11) *)
Example reported_position_example :
  let file := [47; 47; 32; 233; 10; 101; 114; 114; 111; 114; 32; 34; 233; 34] in
  boundary file 6 /\ boundary file 11 /\
  let locs := offset_to_location Cur file [6; 11] in
  print_loc (nth 0 locs zero_loc) (nth 1 locs zero_loc) = (2, 1, Some (None, 7)) /\
  print_js (nth 0 locs zero_loc) = (2, 1).
Proof.
  split; [exists 5%nat; split; [simpl; lia|reflexivity]|].
  split; [exists 10%nat; split; [simpl; lia|reflexivity]|].
  vm_compute. split; reflexivity.
Qed.
