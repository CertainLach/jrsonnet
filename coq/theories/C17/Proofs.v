(** C17 — lemmas on offset_to_location, print_code_location and the lexer's token loop.
    [go_spec] and [otl_spec] serve the code [Cur] and [Old], the loop before /repo 6f9363a; the
    [loc_old_ascii_*] lemmas are the positive result about [Old] beside its refutations. *)
From Coq Require Import List Arith NArith Bool Lia Sorting.Sorted Sorting.Permutation.
From JrV Require Import C17.Model.
Import ListNotations.
Open Scope N_scope.

Lemma StronglySorted_app_r {A} (R : A -> A -> Prop) l1 l2 :
  StronglySorted R (l1 ++ l2) -> StronglySorted R l2.
Proof. induction l1; simpl; intros H; [exact H|]. apply IHl1. inversion H; assumption. Qed.

Lemma upd_length {A} i (f : A -> A) l : length (upd i f l) = length l.
Proof. revert i; induction l; intros [|i]; simpl; auto. Qed.

Lemma upd_nth_same {A} i (f : A -> A) l d : (i < length l)%nat -> nth i (upd i f l) d = f (nth i l d).
Proof.
  revert i; induction l as [|x l IH]; intros i H; [inversion H|].
  destruct i; [reflexivity|]. apply IH, Nat.succ_lt_mono, H.
Qed.

Lemma upd_nth_other {A} i j (f : A -> A) l d : i <> j -> nth j (upd i f l) d = nth j l d.
Proof. revert i j; induction l; intros [|i] [|j] H; simpl; auto; congruence. Qed.

Lemma map_upd {A B} (h : A -> B) f f' : (forall c, h (f c) = f' (h c)) ->
  forall l i, map h (upd i f l) = upd i f' (map h l).
Proof.
  intros H. induction l as [|x r IH]; intros i; [destruct i; reflexivity|].
  destruct i; cbn [upd map]; [now rewrite H|now rewrite IH].
Qed.

Lemma upd_id {A} (l : list A) : forall i, upd i (fun x => x) l = l.
Proof. induction l; intros [|i]; cbn [upd]; f_equal; auto. Qed.

Lemma set_le_core idxs v : forall out, map core (set_le idxs v out) = map core out.
Proof.
  induction idxs as [|i r IH]; intros out; cbn [set_le]; [reflexivity|].
  rewrite IH, (map_upd core _ (fun x => x)) by (intros []; reflexivity). apply upd_id.
Qed.

(** seen through [core], an entry of the offset map puts a record at its index *)
Definition put (r : N * nat -> N * N * N * N) (cs : list (N * N * N * N)) (e : N * nat) :=
  upd (snd e) (fun _ => r e) cs.

Lemma fold_put_ext r r' omap : (forall e, In e omap -> r e = r' e) ->
  forall cs, fold_left (put r) omap cs = fold_left (put r') omap cs.
Proof.
  induction omap as [|e om IH]; intros H cs; [reflexivity|]. cbn [fold_left].
  rewrite IH by (intros; apply H; right; assumption). unfold put.
  rewrite (H e) by (left; reflexivity). reflexivity.
Qed.

Lemma fold_put_other r d omap : forall cs idx, ~ In idx (map snd omap) ->
  nth idx (fold_left (put r) omap cs) d = nth idx cs d.
Proof.
  induction omap as [|e om IH]; intros cs idx H; [reflexivity|]. cbn [fold_left map In] in *.
  rewrite IH by tauto. apply upd_nth_other. tauto.
Qed.

Lemma fold_put_nth r d omap : forall cs e, In e omap -> NoDup (map snd omap) ->
  Forall (fun e => (snd e < length cs)%nat) omap ->
  nth (snd e) (fold_left (put r) omap cs) d = r e.
Proof.
  induction omap as [|a om IH]; intros cs e Hi Hnd Hb; [destruct Hi|]. cbn [fold_left map] in *.
  inversion Hnd as [|? ? Hni Hnd']; subst. apply Forall_cons_iff in Hb. destruct Hi as [<-|Hi].
  - rewrite fold_put_other by exact Hni. apply upd_nth_same, Hb.
  - apply IH; auto. unfold put. eapply Forall_impl; [|apply Hb]. intros x. rewrite upd_length. auto.
Qed.

Definition osorted (multi : bool) (omap : list (N * nat)) : Prop :=
  StronglySorted (fun a b => if multi then fst a <= fst b else fst a < fst b) omap.

Lemma osorted_le multi a l : osorted multi (a :: l) -> Forall (fun e => fst a <= fst e) l.
Proof.
  intros H. apply StronglySorted_inv in H. eapply Forall_impl; [|apply H].
  intros e He. destruct multi; lia.
Qed.

Lemma pop_stop multi pos line col ls omap pend out :
  Forall (fun e => pos < fst e) omap -> pop multi pos line col ls omap pend out = (omap, pend, out).
Proof.
  destruct omap as [|[o idx] om]; [reflexivity|]. intros H. apply Forall_cons_iff in H.
  cbn [pop fst] in *. destruct (N.eqb_spec o pos); [lia|reflexivity].
Qed.

Lemma pop_spec multi pos line col ls : forall omap pend out om' pend' out',
  pop multi pos line col ls omap pend out = (om', pend', out') ->
  osorted multi omap ->
  Forall (fun e => pos <= fst e) omap ->
  exists popped,
    omap = popped ++ om' /\
    Forall (fun e => fst e = pos) popped /\
    Forall (fun e => pos < fst e) om' /\
    map core out' = fold_left (put (fun _ => (pos, line, col, ls))) popped (map core out).
Proof.
  induction omap as [|[o idx] om IH]; intros pend out om' pend' out' Hp Hs Hb; cbn [pop] in Hp.
  { injection Hp as <- _ <-. exists []. repeat split; auto. }
  apply Forall_cons_iff in Hb. destruct Hb as [Hge Hb]. cbn [fst] in Hge.
  destruct (N.eqb_spec o pos) as [->|Hne].
  - set (out1 := upd idx (fun c => mkloc pos line col ls (c_le c)) out) in Hp.
    apply StronglySorted_inv in Hs. destruct Hs as [Hs Hlt].
    (* before 6f9363a the loop stopped here, where the strictly sorted map stops it anyway *)
    assert (Hp' : pop multi pos line col ls om (pend ++ [idx]) out1 = (om', pend', out')).
    { destruct multi; [exact Hp|]. rewrite pop_stop; [exact Hp|exact Hlt]. }
    apply IH in Hp'; [|exact Hs|exact Hb].
    destruct Hp' as (popped & -> & Fp & Fgt & E).
    exists ((pos, idx) :: popped). split; [reflexivity|]. split; [constructor; auto|]. split; [exact Fgt|].
    rewrite E. unfold out1. rewrite (map_upd core _ (fun _ => (pos, line, col, ls))) by reflexivity.
    reflexivity.
  - injection Hp as <- _ <-. exists []. repeat split; auto.
    constructor; [cbn [fst]; lia|].
    eapply Forall_impl; [|apply (osorted_le _ _ _ Hs)]. cbn [fst]. intros e He. lia.
Qed.

(** one round of the `for` loop *)
Lemma go_cons multi pos ch rest maxo line col ls omap pend out :
  go multi ((pos, ch) :: rest) maxo line col ls omap pend out =
  let '(om1, pend1, out1) := pop multi pos line (col + 1) ls omap pend out in
  let out2 := set_le (if ch =? 10 then pend1 else []) pos out1 in
  if (ch =? 10) && (pos =? maxo + 1) then ([], out2)
  else let '(line', col', ls') := step_st (line, col, ls) (pos, ch) in
       go multi rest maxo line' col' ls' om1 (if ch =? 10 then [] else pend1) out2.
Proof.
  cbn [go step_st]. destruct (pop _ _ _ _ _ _ _ _) as [[om1 pend1] out1].
  destruct (ch =? 10), (pos =? maxo + 1); reflexivity.
Qed.

(** the record for offset [o]: the loop state on reaching position [o] of [items] *)
Fixpoint locate (items : list (N * N)) (st : N * N * N) (o : N) : N * N * N * N :=
  match items with
  | [] => rec_of o st
  | it :: rest => if fst it =? o then rec_of o st else locate rest (step_st st it) o
  end.

Lemma locate_split pre : forall st o c post, ~ In o (map fst pre) ->
  locate (pre ++ (o, c) :: post) st o = rec_of o (scan st pre).
Proof.
  induction pre as [|it pre IH]; intros st o c post H; cbn [app locate fst map In] in *.
  - rewrite N.eqb_refl. reflexivity.
  - destruct (N.eqb_spec (fst it) o); [tauto|]. apply IH. tauto.
Qed.

(** the loop puts, for every entry of the offset map in turn, the record of its offset *)
Lemma go_spec multi : forall items maxo line col ls omap pend out pend' out',
  go multi items maxo line col ls omap pend out = (pend', out') ->
  StronglySorted N.lt (map fst items) ->
  osorted multi omap ->
  Forall (fun e => In (fst e) (map fst items) /\ fst e <= maxo) omap ->
  map core out' = fold_left (put (fun e => locate items (line, col, ls) (fst e))) omap (map core out).
Proof.
  induction items as [|[pos ch] rest IH]; intros maxo line col ls omap pend out pend' out' Hgo Hsi Hso Hin.
  { injection Hgo as _ <-. destruct Hin as [|e om [[] _] _]. reflexivity. }
  rewrite go_cons in Hgo. cbn [map fst] in Hsi, Hin. apply StronglySorted_inv in Hsi. destruct Hsi as [Hsr Hgt].
  destruct (pop multi pos line (col + 1) ls omap pend out) as [[om1 pend1] out1] eqn:Hpop.
  apply pop_spec in Hpop; [|exact Hso|].
  2:{ eapply Forall_impl; [|exact Hin]. cbn [In]. intros e ([He|He] & _); [lia|].
      rewrite Forall_forall in Hgt. apply N.lt_le_incl, Hgt, He. }
  destruct Hpop as (popped & -> & Fp & Fgt & E1).
  apply Forall_app in Hin. destruct Hin as [_ Hin1].
  rewrite fold_left_app.
  (* the entries for [pos] get the state of this round, the others are looked up further on *)
  rewrite (fold_put_ext _ (fun _ => (pos, line, col + 1, ls)) popped), <- E1.
  2:{ intros e He. rewrite Forall_forall in Fp. cbn [locate fst]. rewrite (Fp e He), N.eqb_refl. reflexivity. }
  rewrite (fold_put_ext _ (fun e => locate rest (step_st (line, col, ls) (pos, ch)) (fst e)) om1).
  2:{ intros e He. rewrite Forall_forall in Fgt. apply Fgt in He. cbn [locate fst].
      destruct (N.eqb_spec pos (fst e)); [lia|reflexivity]. }
  rewrite <- (set_le_core (if ch =? 10 then pend1 else []) pos out1).
  destruct ((ch =? 10) && (pos =? maxo + 1)) eqn:Ebrk.
  - (* at the newline after the largest offset nothing is left in the map *)
    injection Hgo as _ <-. apply andb_prop in Ebrk. destruct Ebrk as [_ Ebrk]. apply N.eqb_eq in Ebrk.
    destruct om1 as [|e om1]; [reflexivity|].
    apply Forall_cons_iff in Fgt. apply Forall_cons_iff in Hin1. lia.
  - destruct (step_st (line, col, ls) (pos, ch)) as [[line' col'] ls'].
    apply (IH _ _ _ _ _ _ _ _ _ Hgo Hsr (StronglySorted_app_r _ _ _ Hso)).
    eapply Forall_impl; [|apply (Forall_and Fgt Hin1)].
    cbn [In]. intros e (Hlt & [He|He] & H); [lia|auto].
Qed.

Lemma ins_perm x l : Permutation (ins x l) (x :: l).
Proof.
  induction l as [|y r IH]; simpl; auto.
  destruct (fst x <=? fst y); auto.
  eapply perm_trans; [apply perm_skip; exact IH|apply perm_swap].
Qed.

Lemma isort_perm l : Permutation (fold_right ins [] l) l.
Proof. induction l; simpl; auto. eapply perm_trans; [apply ins_perm|]. auto. Qed.

Lemma ins_sorted x l : osorted true l -> osorted true (ins x l).
Proof.
  unfold osorted. induction 1 as [|y r Hs IH Hf]; cbn [ins]; [repeat constructor|].
  destruct (N.leb_spec (fst x) (fst y)) as [E|E].
  - repeat constructor; auto. eapply Forall_impl; [|exact Hf]. cbn beta. intros; lia.
  - constructor; [exact IH|]. apply (Permutation_Forall (Permutation_sym (ins_perm x r))).
    constructor; [lia|exact Hf].
Qed.

Lemma isort_sorted l : osorted true (fold_right ins [] l).
Proof. induction l; simpl; [constructor|apply ins_sorted; auto]. Qed.

(** what the one match per position before 6f9363a relied on *)
Lemma osorted_strict l : osorted true l -> NoDup (map fst l) -> osorted false l.
Proof.
  unfold osorted. induction 1 as [|a l Hs IH Hf]; cbn [map]; intros Hnd; [constructor|].
  inversion Hnd as [|? ? Hni Hnd']; subst. constructor; [auto|].
  rewrite Forall_forall in *. intros e He. specialize (Hf e He).
  assert (fst a <> fst e) by (intros E; apply Hni; rewrite E; apply in_map, He). lia.
Qed.

Lemma map_fst_combine {A B} (l1 : list A) (l2 : list B) :
  length l1 = length l2 -> map fst (combine l1 l2) = l1.
Proof. revert l2; induction l1; intros [|b l2] H; try discriminate H; simpl; f_equal; auto. Qed.
Lemma map_snd_combine {A B} (l1 : list A) (l2 : list B) :
  length l1 = length l2 -> map snd (combine l1 l2) = l2.
Proof. revert l2; induction l1; intros [|b l2] H; try discriminate H; simpl; f_equal; auto. Qed.

Lemma in_combine_seq {A} (l : list A) : forall s i x,
  nth_error l i = Some x -> In (x, (s + i)%nat) (combine l (seq s (length l))).
Proof.
  induction l; intros s [|i] x H; try discriminate H; cbn [length seq combine].
  - injection H as <-. rewrite Nat.add_0_r. left; reflexivity.
  - right. rewrite Nat.add_succ_r. apply (IHl (S s)), H.
Qed.

Lemma max_ge offs o : In o offs -> o <= fold_right N.max 0 offs.
Proof. induction offs; intros []; subst; cbn [fold_right]; [lia|]. specialize (IHoffs H). lia. Qed.

Lemma sorted_not_before (pre : list (N * N)) o c post :
  StronglySorted N.lt (map fst (pre ++ (o, c) :: post)) -> ~ In o (map fst pre).
Proof.
  induction pre as [|it pre IH]; cbn [app map In]; intros H; [tauto|].
  apply StronglySorted_inv in H. destruct H as [Hs Hf]. intros [E|Hi]; [|exact (IH Hs Hi)].
  rewrite map_app, Forall_app in Hf. destruct Hf as [_ Hf]. apply Forall_cons_iff in Hf.
  cbn [fst] in Hf. lia.
Qed.

(** offset_to_location for both versions; [R o] is the record wanted for offset [o] *)
Lemma otl_spec v file offs (R : N -> N * N * N * N) :
  (multi_of v = false -> NoDup offs) ->
  StronglySorted N.lt (map fst (items_of v file)) ->
  (forall o, In o offs -> exists pre c post,
     items_of v file = pre ++ (o, c) :: post /\ rec_of o (scan (1, 1, 0) pre) = R o) ->
  forall i o, nth_error offs i = Some o ->
  core (nth i (offset_to_location v file offs) zero_loc) = R o.
Proof.
  intros Hnd Hsorted Hpos i o Hnth.
  destruct (Hpos o (nth_error_In _ _ Hnth)) as (pre & c & post & Hsplit & <-).
  unfold offset_to_location. destruct offs as [|o0 offs'] eqn:Eoffs; [destruct i; discriminate|].
  rewrite <- Eoffs in *. clear Eoffs o0 offs'.
  destruct (go _ _ _ _ _ _ _ _ _) as [pend out] eqn:Hgo.
  rewrite <- (map_nth core), set_le_core.
  unfold sort_offsets in Hgo. set (l := combine offs (seq 0 (length offs))) in Hgo.
  assert (Hfst : map fst l = offs) by (apply map_fst_combine; rewrite seq_length; reflexivity).
  assert (Hsnd : map snd l = seq 0 (length offs)) by (apply map_snd_combine; rewrite seq_length; reflexivity).
  pose proof (Permutation_sym (isort_perm l)) as Hperm.
  apply go_spec in Hgo; [|exact Hsorted| |].
  - rewrite Hgo. change i with (snd (o, i)) at 1. rewrite fold_put_nth.
    + cbn [fst]. rewrite Hsplit in *. apply locate_split, (sorted_not_before _ _ _ _ Hsorted).
    + apply (Permutation_in _ Hperm), (in_combine_seq offs 0 i o Hnth).
    + apply (Permutation_NoDup (Permutation_map snd Hperm)). rewrite Hsnd. apply seq_NoDup.
    + apply (Permutation_Forall Hperm). rewrite Forall_forall. intros [o' j] He.
      apply in_combine_r, in_seq in He. rewrite map_length, repeat_length. cbn [snd]. lia.
  - pose proof (isort_sorted l) as Hs. destruct (multi_of v); [exact Hs|].
    apply osorted_strict; [exact Hs|].
    apply (Permutation_NoDup (Permutation_map fst Hperm)). rewrite Hfst. auto.
  - apply (Permutation_Forall Hperm). rewrite Forall_forall. intros [o' j] He.
    apply in_combine_l in He. cbn [fst]. split; [|apply max_ge, He].
    destruct (Hpos o' He) as (pre' & c' & post' & -> & _). rewrite map_app. apply in_elt.
Qed.

Lemma last_seg_snoc l b : last_seg (l ++ [b]) = if b =? 10 then [] else last_seg l ++ [b].
Proof. unfold last_seg. rewrite fold_left_app. reflexivity. Qed.

Definition nonl (b : N) : bool := negb (b =? 10).

Lemma last_seg_app_nonl m : forall l, forallb nonl m = true -> last_seg (l ++ m) = last_seg l ++ m.
Proof.
  induction m as [|b m IH] using rev_ind; intros l H.
  - rewrite !app_nil_r; auto.
  - rewrite forallb_app in H. apply andb_prop in H. destruct H as [H1 H2]. unfold nonl in H2. cbn in H2.
    rewrite app_assoc, last_seg_snoc. destruct (b =? 10); [discriminate|].
    rewrite IH by auto. rewrite app_assoc. reflexivity.
Qed.

Lemma last_seg_length_le l : (length (last_seg l) <= length l)%nat.
Proof.
  induction l using rev_ind; simpl; auto.
  rewrite last_seg_snoc, app_length. destruct (x =? 10); simpl; [lia|].
  rewrite app_length; simpl; lia.
Qed.

Lemma count_nl_app l m : count_nl (l ++ m) = count_nl l + count_nl m.
Proof. unfold count_nl. rewrite filter_app, app_length. lia. Qed.

Lemma count_nl_nonl m : forallb nonl m = true -> count_nl m = 0.
Proof.
  unfold count_nl. induction m as [|b m IH]; [reflexivity|]. cbn [forallb filter]. intros H.
  apply andb_prop in H. destruct H as [H1 H2]. apply negb_true_iff in H1. rewrite H1. auto.
Qed.

(* [simpl] and [cbn] below must leave the additions of byte arithmetic alone *)
Local Arguments N.add : simpl never.

Lemma is_start_false b : is_start b = false <-> 128 <= b < 192.
Proof.
  assert (H64 : 64 <> 0) by discriminate.
  unfold is_start. pose proof (N.div_mod b 64 H64) as Hb. pose proof (N.mod_lt b 64 H64) as Hr.
  set (q := b / 64) in *. set (r := b mod 64) in *. clearbody q r.
  destruct (N.eqb_spec q 2); cbn [negb]; split; intros H; try discriminate H; try reflexivity; lia.
Qed.

Lemma is_start_low b : b < 128 -> is_start b = true.
Proof. intros H. destruct (is_start b) eqn:E; [reflexivity|]. apply is_start_false in E. lia. Qed.

Lemma is_start_lead a x : 192 <= a -> is_start (a + x) = true.
Proof. intros H. destruct (is_start _) eqn:E; [reflexivity|]. apply is_start_false in E. lia. Qed.

Lemma is_start_cont x : is_start (128 + x mod 64) = false.
Proof.
  apply is_start_false. assert (H : x mod 64 < 64) by (apply N.mod_lt; discriminate).
  revert H. generalize (x mod 64). intros; lia.
Qed.

Lemma clen_pos c : 1 <= clen c.
Proof. unfold clen. destruct (c <? 128), (c <? 2048), (c <? 65536); lia. Qed.

Lemma enc_len c : N.of_nat (length (enc c)) = clen c.
Proof. unfold enc, clen. destruct (c <? 128), (c <? 2048), (c <? 65536); reflexivity. Qed.

Lemma enc_starts c : length (filter is_start (enc c)) = 1%nat.
Proof.
  unfold enc. destruct (N.ltb_spec c 128).
  - cbn [filter]. rewrite is_start_low by assumption. reflexivity.
  - destruct (c <? 2048); [|destruct (c <? 65536)];
      cbn [filter]; rewrite ?is_start_cont, is_start_lead by lia; reflexivity.
Qed.

Lemma nonl_add a x : 11 <= a -> nonl (a + x) = true.
Proof. intros H. apply negb_true_iff, N.eqb_neq. lia. Qed.

Lemma enc_nonl c : c <> 10 -> forallb nonl (enc c) = true.
Proof.
  intros Hc. unfold enc. destruct (c <? 128).
  - cbn [forallb]. rewrite andb_true_r. apply negb_true_iff, N.eqb_neq, Hc.
  - destruct (c <? 2048); [|destruct (c <? 65536)];
      cbn [forallb]; rewrite !nonl_add by lia; reflexivity.
Qed.

Lemma encode_app a b : encode (a ++ b) = encode a ++ encode b.
Proof. apply flat_map_app. Qed.

Lemma encode_snoc w c : encode (w ++ [c]) = encode w ++ enc c.
Proof. rewrite encode_app. cbn. rewrite app_nil_r. reflexivity. Qed.

Lemma encode_length w : N.of_nat (length (encode w)) = blen w.
Proof.
  induction w; [reflexivity|]. cbn [encode flat_map blen].
  rewrite app_length, Nat2N.inj_add, enc_len. f_equal. exact IHw.
Qed.

Lemma blen_app a b : blen (a ++ b) = blen a + blen b.
Proof. induction a; simpl; auto. rewrite IHa. lia. Qed.

Lemma blen_ge_length w : N.of_nat (length w) <= blen w.
Proof. induction w; simpl length; simpl blen; [lia|]. pose proof (clen_pos a). lia. Qed.

Lemma prefix_encode_boundary file k :
  prefix (encode file) (blen (firstn k file)) = encode (firstn k file).
Proof.
  unfold prefix. rewrite <- (firstn_skipn k file) at 2.
  rewrite encode_app, <- encode_length, Nat2N.id, firstn_app, Nat.sub_diag, firstn_all.
  apply app_nil_r.
Qed.

Lemma clen_ascii c : is_ascii c = true -> clen c = 1.
Proof. unfold clen, is_ascii. intros ->. reflexivity. Qed.

Lemma encode_ascii w : forallb is_ascii w = true -> encode w = w.
Proof.
  induction w; simpl; auto. intros H. apply andb_prop in H. destruct H as [H1 H2].
  unfold enc. unfold is_ascii in H1. rewrite H1. simpl. f_equal. apply IHw; auto.
Qed.

Lemma blen_ascii w : forallb is_ascii w = true -> blen w = N.of_nat (length w).
Proof.
  induction w; [reflexivity|]. cbn [forallb blen length]. intros H. apply andb_prop in H.
  destruct H as [H1 H2]. rewrite (clen_ascii _ H1), IHw by auto. lia.
Qed.

Lemma ci_app a : forall p b,
  char_indices_from p (a ++ b) = char_indices_from p a ++ char_indices_from (p + blen a) b.
Proof.
  induction a as [|c a IH]; intros p b; cbn [app char_indices_from blen].
  - rewrite N.add_0_r. reflexivity.
  - rewrite IH, N.add_assoc. reflexivity.
Qed.

Lemma ci_ge cs : forall p, Forall (fun x => p <= x) (map fst (char_indices_from p cs)).
Proof.
  induction cs; intros p; simpl; constructor; [lia|].
  eapply Forall_impl; [|apply IHcs]. simpl; intros. pose proof (clen_pos a). lia.
Qed.

Lemma ci_sorted cs : forall p q, p + blen cs <= q ->
  StronglySorted N.lt (map fst (char_indices_from p cs ++ [(q, 32)])).
Proof.
  induction cs; intros p q H; simpl in *.
  - repeat constructor.
  - pose proof (clen_pos a). constructor; [apply IHcs; lia|].
    rewrite map_app, Forall_app. split.
    + eapply Forall_impl; [|apply (ci_ge cs (p + clen a))]. simpl; intros; lia.
    + repeat constructor. simpl. lia.
Qed.

(** the loop state of the code after walking ANY text is the specified one *)
Lemma scan_ci w :
  scan (1, 1, 0) (char_indices_from 0 w) =
  (1 + count_nl (encode w), 1 + N.of_nat (length (filter is_start (last_seg (encode w)))),
   blen w - N.of_nat (length (last_seg (encode w)))).
Proof.
  induction w as [|c w IH] using rev_ind; [reflexivity|].
  rewrite ci_app. unfold scan in *. rewrite fold_left_app, IH. cbn [char_indices_from fold_left step_st].
  rewrite encode_snoc, count_nl_app, blen_app. cbn [blen].
  assert (N.of_nat (length (last_seg (encode w))) <= blen w).
  { rewrite <- encode_length. pose proof (last_seg_length_le (encode w)). lia. }
  destruct (N.eqb_spec c 10) as [->|Hc].
  - change (enc 10) with [10]. change (count_nl [10]) with 1. rewrite last_seg_snoc. cbn.
    f_equal; [f_equal; lia|lia].
  - pose proof (enc_nonl c Hc) as Hn.
    rewrite (last_seg_app_nonl _ _ Hn), (count_nl_nonl _ Hn), filter_app, !app_length, enc_starts.
    rewrite !Nat2N.inj_add, enc_len. f_equal; [f_equal; lia|lia].
Qed.

Lemma scan_boundary file k :
  rec_of (blen (firstn k file)) (scan (1, 1, 0) (char_indices_from 0 (firstn k file))) =
  (blen (firstn k file), spec_line (encode file) (blen (firstn k file)),
   spec_col (encode file) (blen (firstn k file)) + 1, spec_line_start (encode file) (blen (firstn k file))).
Proof.
  rewrite scan_ci. unfold rec_of, spec_line, spec_col, spec_line_start.
  rewrite prefix_encode_boundary. reflexivity.
Qed.

Lemma enum_app a : forall p b,
  enumerate_from p (a ++ b) = enumerate_from p a ++ enumerate_from (p + N.of_nat (length a)) b.
Proof.
  induction a as [|c a IH]; intros p b; cbn [app enumerate_from length].
  - rewrite N.add_0_r. reflexivity.
  - rewrite IH, Nat2N.inj_succ, <- N.add_1_l, N.add_assoc. reflexivity.
Qed.

Lemma enum_ge cs : forall p, Forall (fun x => p <= x) (map fst (enumerate_from p cs)).
Proof.
  induction cs; intros p; simpl; constructor; [lia|].
  eapply Forall_impl; [|apply IHcs]. simpl; intros; lia.
Qed.

Lemma enum_sorted cs : forall p q, p + N.of_nat (length cs) <= q ->
  StronglySorted N.lt (map fst (enumerate_from p cs ++ [(q, 32)])).
Proof.
  induction cs; intros p q H; simpl in *.
  - repeat constructor.
  - constructor; [apply IHcs; lia|].
    rewrite map_app, Forall_app. split.
    + eapply Forall_impl; [|apply (enum_ge cs (p + 1))]. simpl; intros; lia.
    + repeat constructor. simpl. lia.
Qed.

Lemma old_sorted file : StronglySorted N.lt (map fst (items_of Old file)).
Proof. apply enum_sorted. pose proof (blen_ge_length file). lia. Qed.

(** on ASCII text character indices are byte offsets *)
Lemma enum_ascii w : forallb is_ascii w = true ->
  forall p, enumerate_from p w = char_indices_from p w.
Proof.
  induction w as [|c w IH]; [reflexivity|]. cbn [forallb]. intros H p. apply andb_prop in H.
  cbn [enumerate_from char_indices_from]. rewrite (clen_ascii c), IH by apply H. reflexivity.
Qed.

Lemma old_items_split file o :
  forallb is_ascii (firstn (N.to_nat o) file) = true -> o <= blen file ->
  blen (firstn (N.to_nat o) file) = o /\
  exists c post, items_of Old file = enumerate_from 0 (firstn (N.to_nat o) file) ++ (o, c) :: post.
Proof.
  intros Ha Hle. set (k := N.to_nat o) in *.
  assert (E : items_of Old file = enumerate_from 0 (firstn k file) ++
              enumerate_from (N.of_nat (length (firstn k file))) (skipn k file) ++ [(blen file, 32)]).
  { cbn [items_of]. rewrite <- (firstn_skipn k file) at 1. rewrite enum_app, <- app_assoc. reflexivity. }
  rewrite E, (blen_ascii _ Ha), firstn_length. clear E.
  pose proof (skipn_length k file) as Hl.
  destruct (skipn k file) as [|c r]; cbn [length] in Hl.
  - rewrite firstn_all2 in Ha by lia. rewrite (blen_ascii _ Ha) in *.
    split; [lia|]. exists 32, []. cbn [enumerate_from app]. do 3 f_equal. lia.
  - split; [lia|]. eexists c, _. cbn [enumerate_from app]. do 3 f_equal. lia.
Qed.

Lemma loc_old_ascii_prefix file offs i o :
  NoDup offs ->
  forallb is_ascii (firstn (N.to_nat (fold_right N.max 0 offs)) file) = true ->
  (forall o', In o' offs -> o' <= blen file) ->
  nth_error offs i = Some o ->
  core (nth i (offset_to_location Old file offs) zero_loc) =
  (o, spec_line (encode file) o, spec_col (encode file) o + 1, spec_line_start (encode file) o).
Proof.
  intros Hnd Ha Hle.
  apply (otl_spec Old file offs (fun o => (o, spec_line (encode file) o, spec_col (encode file) o + 1,
                                          spec_line_start (encode file) o)));
    [auto|apply old_sorted|].
  clear i o. intros o Hi.
  assert (Hpre : forallb is_ascii (firstn (N.to_nat o) file) = true).
  { rewrite <- (firstn_skipn (N.to_nat o) (firstn _ file)), forallb_app in Ha. apply andb_prop in Ha.
    rewrite firstn_firstn, Nat.min_l in Ha; [apply Ha|]. pose proof (max_ge _ _ Hi). lia. }
  destruct (old_items_split file o Hpre (Hle _ Hi)) as (Hlen & c & post & Hsplit).
  exists (enumerate_from 0 (firstn (N.to_nat o) file)), c, post. split; [exact Hsplit|].
  rewrite (enum_ascii _ Hpre). pose proof (scan_boundary file (N.to_nat o)) as H.
  rewrite Hlen in H. exact H.
Qed.

Lemma loc_old_ascii_file file offs i o :
  forallb is_ascii file = true -> NoDup offs ->
  (forall o', In o' offs -> o' <= N.of_nat (length file)) ->
  nth_error offs i = Some o ->
  core (nth i (offset_to_location Old file offs) zero_loc) = (o, spec_line file o, spec_col file o + 1, spec_line_start file o).
Proof.
  intros Ha Hnd Hle Hn. pose proof (loc_old_ascii_prefix file offs i o Hnd) as H.
  rewrite (encode_ascii _ Ha), (blen_ascii _ Ha) in H. apply H; auto.
  rewrite <- (firstn_skipn (N.to_nat (fold_right N.max 0 offs)) file), forallb_app in Ha.
  apply andb_prop in Ha. apply Ha.
Qed.

Lemma print_same_line s e :
  known_multiline s e = false ->
  printed_line (print_loc s e) = c_line s /\ printed_col (print_loc s e) = c_col s - 1.
Proof.
  unfold known_multiline, print_loc, printed_line, printed_col. intros H.
  apply negb_false_iff in H. rewrite H.
  destruct (c_col s =? c_col e) eqn:E; simpl; auto.
  apply N.eqb_eq in E. rewrite E. auto.
Qed.

Lemma print_mapped s e a la ca sa b cb sb :
  core s = (a, la, ca + 1, sa) -> core e = (b, la, cb, sb) ->
  printed_line (print_loc s e) = la /\ printed_col (print_loc s e) = ca.
Proof.
  unfold core. intros [= _ Hl Hc _] [= _ Hl' _ _].
  destruct (print_same_line s e) as [-> ->].
  - unfold known_multiline. rewrite Hl, Hl', N.eqb_refl. reflexivity.
  - rewrite Hl, Hc. split; [reflexivity|lia].
Qed.

(** end to end for one span [a, b): what the trace line shows *)
Lemma reported_position_old file a b :
  known_multibyte file [a; b] = false -> a <> b -> a <= blen file -> b <= blen file ->
  spec_line (encode file) a = spec_line (encode file) b ->
  let locs := offset_to_location Old file [a; b] in
  let p := print_loc (nth 0 locs zero_loc) (nth 1 locs zero_loc) in
  printed_line p = spec_line (encode file) a /\ printed_col p = spec_col (encode file) a.
Proof.
  intros Hk Hne Ha Hb Hl locs p. apply negb_false_iff in Hk.
  assert (Hnd : NoDup [a; b]).
  { repeat constructor; [intros [E|[]]; auto|intros []]. }
  assert (Hle : forall o', In o' [a; b] -> o' <= blen file) by (intros o' [H|[H|[]]]; subst; auto).
  eapply print_mapped; [apply (loc_old_ascii_prefix file [a; b] 0 a Hnd Hk Hle eq_refl)|].
  rewrite Hl. apply (loc_old_ascii_prefix file [a; b] 1 b Hnd Hk Hle eq_refl).
Qed.

Lemma lex_loop_tiles {K} (matcher : list N -> option (K * N)) :
  matcher_ok matcher ->
  forall fuel rest pos n, (length rest <= fuel)%nat -> pos + N.of_nat (length rest) = n ->
    exists toks, lex_loop matcher fuel pos rest = Some toks /\ tiles_from pos toks n.
Proof.
  intros Hok. induction fuel; intros rest pos n Hf Hn.
  - destruct rest; simpl in *; [|lia]. exists []. split; auto. simpl. lia.
  - destruct rest as [|b rest'].
    + exists []. split; auto. simpl in *. lia.
    + cbn [lex_loop].
      destruct (Hok (b :: rest')) as (k & len & Hm & Hpos & Hlen); [discriminate|].
      rewrite Hm.
      destruct (IHfuel (skipn (N.to_nat len) (b :: rest')) (pos + len) n) as (toks & Ht & Hti).
      * rewrite skipn_length. simpl length in *. lia.
      * rewrite skipn_length. lia.
      * rewrite Ht. eexists; split; [reflexivity|]. simpl. repeat split; auto; lia.
Qed.

(** props/c17.py reads [tiles_fromb] on real token lists as [tiles] *)
Lemma tiles_fromb_ok {K} (toks : list (K * N * N)) : forall p n,
  tiles_fromb p toks n = true <-> tiles_from p toks n.
Proof.
  induction toks as [|[[k s] e] r IH]; intros p n; simpl.
  - apply N.eqb_eq.
  - rewrite !andb_true_iff, N.eqb_eq, N.ltb_lt, N.leb_le, IH. tauto.
Qed.

Lemma skipn_add {A} a : forall b (l : list A), skipn (a + b) l = skipn a (skipn b l).
Proof.
  induction b as [|b IH]; intros l; [rewrite Nat.add_0_r; reflexivity|].
  rewrite Nat.add_succ_r. destruct l; [rewrite !skipn_nil; reflexivity|apply IH].
Qed.

Lemma tiles_concat {K} (input : list N) (toks : list (K * N * N)) : forall p,
  tiles_from p toks (N.of_nat (length input)) ->
  concat (map (fun t => slice input (snd (fst t)) (snd t)) toks) = skipn (N.to_nat p) input.
Proof.
  induction toks as [|[[k s] e] r IH]; intros p H; simpl in *.
  - subst p. rewrite Nat2N.id. rewrite skipn_all. reflexivity.
  - destruct H as (Hs & Hlt & Hle & Hr). subst s. rewrite (IH _ Hr). unfold slice. cbn [fst snd].
    replace (N.to_nat e) with (N.to_nat (e - p) + N.to_nat p)%nat by lia.
    rewrite skipn_add. apply firstn_skipn.
Qed.

(** "// c\nerror \"é\"": non-ASCII text only after the span of `error` = [5, 10) *)
Definition ex_file : list N := [47; 47; 32; 99; 10; 101; 114; 114; 111; 114; 32; 34; 233; 34].
Example loc_old_example :
  known_multibyte ex_file [5; 10] = false /\ known_dup [5; 10] = false /\
  (forall o', In o' [5; 10] -> o' <= blen ex_file) /\
  existsb (fun c => negb (is_ascii c)) ex_file = true /\
  map core (offset_to_location Old ex_file [5; 10]) = [(5, 2, 2, 5); (10, 2, 7, 5)].
Proof.
  repeat split; try (vm_compute; reflexivity).
  intros o' [H|[H|[]]]; subst; vm_compute; discriminate.
Qed.

Example reported_position_example :
  let locs := offset_to_location Old ex_file [5; 10] in
  print_loc (nth 0 locs zero_loc) (nth 1 locs zero_loc) = (2, 1, Some (None, 7)).
Proof. vm_compute. reflexivity. Qed.

Example lex_example :
  (* a matcher that eats one byte, or two when the first is 47 ('/') *)
  let m := fun rest : list N => match rest with
                                | [] => None
                                | 47 :: _ :: _ => Some (1%nat, 2)
                                | _ :: _ => Some (0%nat, 1)
                                end in
  matcher_ok m /\ lex_loop m 5 0 [47; 47; 32; 99; 10] = Some [(1%nat, 0, 2); (0%nat, 2, 3); (0%nat, 3, 4); (0%nat, 4, 5)].
Proof.
  intros m. split; [|reflexivity].
  intros [|b r] Hne; [congruence|].
  (* following the binary digits of 47, every other byte leaves the match at once *)
  assert (H : m (b :: r) = Some (0%nat, 1) \/ exists b2 r', r = b2 :: r' /\ m (b :: r) = Some (1%nat, 2)).
  { destruct b as [|p]; [left; reflexivity|].
    do 6 (destruct p as [p|p|]; try (left; reflexivity)).
    destruct r as [|b2 r']; [left; reflexivity|right; eauto]. }
  destruct H as [H|(b2 & r' & -> & H)]; rewrite H; eexists _, _; (split; [reflexivity|]);
    cbn [length]; lia.
Qed.
