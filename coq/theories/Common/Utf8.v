(** UTF-8 (RFC 3629 / Unicode table 3-7) on code-point lists and byte lists.

    [encode]        code points -> bytes (what a Rust [str] / [IStr] holds)
    [run]           the well-formed-sequence automaton; emits [Some c] per decoded scalar value
                    and [None] per maximal ill-formed subpart
    [decode]        strict decoder ([String::from_utf8], [IBytes::cast_str])
    [decode_lossy]  U+FFFD per maximal ill-formed subpart ([String::from_utf8_lossy]) *)
From Coq Require Import List NArith ZArith Bool Lia.
Import ListNotations.
Local Open Scope N_scope.

Definition scalar (c : N) : bool := (c <? 55296) || ((57344 <=? c) && (c <=? 1114111)).

Definition enc1 (c : N) : list N :=
  if c <? 128 then [c]
  else if c <? 2048 then [192 + c / 64; 128 + c mod 64]
  else if c <? 65536 then [224 + c / 4096; 128 + (c / 64) mod 64; 128 + c mod 64]
  else [240 + c / 262144; 128 + (c / 4096) mod 64; 128 + (c / 64) mod 64; 128 + c mod 64].

Definition encode (s : list N) : list N := flat_map enc1 s.

(** [DC n acc lo hi]: inside a sequence; the next byte must lie in [lo..hi]; [n] more
    continuation bytes follow it; [acc] holds the payload bits read so far. *)
Inductive dstate := D0 | DC (n : nat) (acc lo hi : N).

Definition start (b : N) : list (option N) * dstate :=
  if b <? 128 then ([Some b], D0)
  else if b <? 194 then ([None], D0)
  else if b <? 224 then ([], DC 0 (b - 192) 128 191)
  else if b =? 224 then ([], DC 1 (b - 224) 160 191)
  else if b <? 237 then ([], DC 1 (b - 224) 128 191)
  else if b =? 237 then ([], DC 1 (b - 224) 128 159)
  else if b <? 240 then ([], DC 1 (b - 224) 128 191)
  else if b =? 240 then ([], DC 2 (b - 240) 144 191)
  else if b <? 244 then ([], DC 2 (b - 240) 128 191)
  else if b =? 244 then ([], DC 2 (b - 240) 128 143)
  else ([None], D0).

(** A byte outside the window ends the ill-formed part and is looked at again by [start]: Unicode's
    "maximal subpart", the unit [from_utf8_lossy] replaces. *)
Definition step (st : dstate) (b : N) : list (option N) * dstate :=
  match st with
  | D0 => start b
  | DC n acc lo hi =>
      if (lo <=? b) && (b <=? hi) then
        let acc' := acc * 64 + (b - 128) in
        match n with
        | O => ([Some acc'], D0)
        | S n' => ([], DC n' acc' 128 191)
        end
      else let (o, st') := start b in (None :: o, st')
  end.

Fixpoint run (st : dstate) (bs : list N) : list (option N) :=
  match bs with
  | [] => match st with D0 => [] | _ => [None] end
  | b :: r => let (o, st') := step st b in o ++ run st' r
  end.

Fixpoint sequence (l : list (option N)) : option (list N) :=
  match l with
  | [] => Some []
  | Some c :: r => match sequence r with Some s => Some (c :: s) | None => None end
  | None :: _ => None
  end.

Definition decode (bs : list N) : option (list N) := sequence (run D0 bs).
Definition replacement : N := 65533.
Definition decode_lossy (bs : list N) : list N :=
  map (fun o => match o with Some c => c | None => replacement end) (run D0 bs).
Definition valid_utf8 (bs : list N) : bool := match decode bs with Some _ => true | None => false end.

Definition is_cont (b : N) : bool := (128 <=? b) && (b <=? 191).


(** case split on the tests [q =? k] that select a lead byte's window ([start_lead3], [start_lead4]) *)
Ltac window_cases :=
  repeat match goal with
  | |- context [if ?a =? ?b then _ else _] => destruct (N.eqb_spec a b); try lia
  end.

Lemma scalar_spec c : scalar c = true <-> (c < 55296 \/ (57344 <= c /\ c <= 1114111)).
Proof.
  unfold scalar. rewrite orb_true_iff, andb_true_iff, N.ltb_lt, !N.leb_le. tauto.
Qed.

(** ** Radix-64 digits.  A code point is read as [((q * 64 + z) * 64 + y) * 64 + x] with payload
    digits below 64; every fact about [/] and [mod] is confined to the next three lemmas, the
    rest is linear arithmetic over the digits. *)

Lemma digits64 c : c = c / 64 * 64 + c mod 64 /\ c mod 64 < 64.
Proof.
  split; [rewrite N.mul_comm; apply N.div_mod'|now apply N.mod_lt].
Qed.

Lemma div_mul_add h l m : l < m -> (h * m + l) / m = h.
Proof. intros H. symmetry. apply (N.div_unique _ m h l H). now rewrite N.mul_comm. Qed.

Lemma mod_mul_add h l m : l < m -> (h * m + l) mod m = l.
Proof. intros H. symmetry. apply (N.mod_unique _ m h l H). now rewrite N.mul_comm. Qed.

Lemma lt_b a b : a < b -> a <? b = true. Proof. apply N.ltb_lt. Qed.
Lemma ge_b a b : b <= a -> a <? b = false. Proof. apply N.ltb_ge. Qed.

Lemma enc1_1 c : c < 128 -> enc1 c = [c].
Proof. intros H. unfold enc1. now rewrite lt_b. Qed.

Lemma enc1_2 q x : 2 <= q < 32 -> x < 64 -> enc1 (q * 64 + x) = [192 + q; 128 + x].
Proof.
  intros Hq Hx. unfold enc1. rewrite (ge_b _ 128), (lt_b _ 2048) by lia.
  now rewrite div_mul_add, mod_mul_add.
Qed.

Lemma enc1_3 q y x : q < 16 -> y < 64 -> x < 64 -> 2048 <= (q * 64 + y) * 64 + x ->
  enc1 ((q * 64 + y) * 64 + x) = [224 + q; 128 + y; 128 + x].
Proof.
  intros Hq Hy Hx Hc. unfold enc1. rewrite (ge_b _ 128), (ge_b _ 2048), (lt_b _ 65536) by lia.
  change 4096 with (64 * 64). rewrite <- N.div_div by discriminate.
  now rewrite mod_mul_add, !div_mul_add, mod_mul_add.
Qed.

Lemma enc1_4 q z y x : z < 64 -> y < 64 -> x < 64 -> 65536 <= ((q * 64 + z) * 64 + y) * 64 + x ->
  enc1 (((q * 64 + z) * 64 + y) * 64 + x) = [240 + q; 128 + z; 128 + y; 128 + x].
Proof.
  intros Hz Hy Hx Hc. unfold enc1. rewrite (ge_b _ 128), (ge_b _ 2048), (ge_b _ 65536) by lia.
  change 262144 with (64 * 64 * 64). change 4096 with (64 * 64).
  rewrite <- !N.div_div by discriminate.
  now rewrite mod_mul_add, !div_mul_add, !mod_mul_add.
Qed.

Lemma start_ascii b : b < 128 -> start b = ([Some b], D0).
Proof. intros H. unfold start. now rewrite lt_b. Qed.

Lemma start_lead2 q : 2 <= q < 32 -> start (192 + q) = ([], DC 0 q 128 191).
Proof.
  intros H. unfold start. rewrite (ge_b _ 128), (ge_b _ 194), (lt_b _ 224) by lia.
  now rewrite N.add_comm, N.add_sub.
Qed.

Lemma start_lead3 q : q < 16 ->
  start (224 + q) = ([], DC 1 q (if q =? 0 then 160 else 128) (if q =? 13 then 159 else 191)).
Proof.
  intros H. unfold start.
  rewrite (ge_b _ 128), (ge_b _ 194), (ge_b _ 224), N.add_comm, N.add_sub by lia.
  destruct (N.eqb_spec q 0) as [->|H0]; [reflexivity|].
  destruct (N.eqb_spec q 13) as [->|H13]; [reflexivity|].
  rewrite (proj2 (N.eqb_neq _ 224)), (proj2 (N.eqb_neq _ 237)) by lia.
  now destruct (_ <? 237); [|rewrite lt_b by lia].
Qed.

Lemma start_lead4 q : q <= 4 ->
  start (240 + q) = ([], DC 2 q (if q =? 0 then 144 else 128) (if q =? 4 then 143 else 191)).
Proof.
  intros H. unfold start.
  rewrite (ge_b _ 128), (ge_b _ 194), (ge_b _ 224), (ge_b _ 237), (ge_b _ 240) by lia.
  rewrite (proj2 (N.eqb_neq _ 224)), (proj2 (N.eqb_neq _ 237)), N.add_comm, N.add_sub by lia.
  destruct (N.eqb_spec q 0) as [->|H0]; [reflexivity|].
  destruct (N.eqb_spec q 4) as [->|H4]; [reflexivity|].
  now rewrite (proj2 (N.eqb_neq _ 240)), (lt_b _ 244) by lia.
Qed.

(** What the narrowed windows after E0, ED, F0 and F4 mean for the two leading digits: no overlong
    form, no surrogate, nothing above U+10FFFF. *)
Lemma window3 q y : q < 16 -> y < 64 ->
  (if q =? 0 then 160 else 128) <= 128 + y <= (if q =? 13 then 159 else 191) <->
  32 <= q * 64 + y /\ ~ 864 <= q * 64 + y < 896.
Proof. intros Hq Hy. window_cases; lia. Qed.

Lemma window4 q z : q <= 4 -> z < 64 ->
  (if q =? 0 then 144 else 128) <= 128 + z <= (if q =? 4 then 143 else 191) <->
  16 <= q * 64 + z < 272.
Proof. intros Hq Hz. window_cases; lia. Qed.

Lemma step_cont n acc lo hi x : lo <= 128 + x <= hi ->
  step (DC n acc lo hi) (128 + x) =
  match n with O => ([Some (acc * 64 + x)], D0) | S n' => ([], DC n' (acc * 64 + x) 128 191) end.
Proof.
  intros H. cbn [step]. rewrite N.add_comm, N.add_sub.
  now rewrite (proj2 (N.leb_le _ _)), (proj2 (N.leb_le _ _)) by lia.
Qed.

Lemma run_enc1 c r : scalar c = true -> run D0 (enc1 c ++ r) = Some c :: run D0 r.
Proof.
  intros Hs. apply scalar_spec in Hs.
  destruct (N.lt_ge_cases c 128) as [H1|H1].
  { rewrite enc1_1 by assumption. cbn [app run step]. now rewrite start_ascii. }
  destruct (digits64 c) as [Ec Hx]. revert Ec Hx. generalize (c mod 64) as x, (c / 64) as d.
  intros x d -> Hx.
  destruct (N.lt_ge_cases d 32) as [H2|H2].
  { rewrite enc1_2 by lia. cbn [app run step]. rewrite start_lead2 by lia.
    cbn [app run]. now rewrite step_cont by lia. }
  destruct (digits64 d) as [Ed Hy]. revert Ed Hy. generalize (d mod 64) as y, (d / 64) as q.
  intros y q -> Hy.
  destruct (N.lt_ge_cases q 16) as [H3|H3].
  { rewrite enc1_3 by lia. cbn [app run step]. rewrite start_lead3 by assumption.
    cbn [app run]. rewrite step_cont by (apply window3; lia). cbn [app run]. now rewrite step_cont by lia. }
  destruct (digits64 q) as [Eq Hz]. revert Eq Hz. generalize (q mod 64) as z, (q / 64) as p.
  intros z p -> Hz.
  rewrite enc1_4 by lia. cbn [app run step]. rewrite start_lead4 by lia.
  cbn [app run]. rewrite step_cont by (apply window4; lia).
  cbn [app run]. rewrite step_cont by lia. cbn [app run]. now rewrite step_cont by lia.
Qed.

Lemma run_encode s : forall r, forallb scalar s = true ->
  run D0 (encode s ++ r) = map Some s ++ run D0 r.
Proof.
  induction s as [|c s IH]; intros r H; [reflexivity|].
  cbn [forallb] in H. apply andb_true_iff in H as [Hc Hs].
  cbn [encode flat_map]. fold (encode s). rewrite <- app_assoc, run_enc1 by assumption.
  cbn [map app]. now rewrite IH.
Qed.

Lemma sequence_map_Some s : sequence (map Some s) = Some s.
Proof. induction s as [|c s IH]; [reflexivity|]. cbn. now rewrite IH. Qed.

Lemma sequence_Some_inv l s : sequence l = Some s -> l = map Some s.
Proof.
  revert s. induction l as [|[c|] l IH]; intros s H; cbn in H.
  - now inversion H.
  - destruct (sequence l) eqn:E; [|discriminate]. inversion H; subst. cbn. f_equal. now apply IH.
  - discriminate.
Qed.

Lemma decode_encode s : forallb scalar s = true -> decode (encode s) = Some s.
Proof.
  intros H. unfold decode. rewrite <- (app_nil_r (encode s)), run_encode by assumption.
  cbn [run]. rewrite app_nil_r. apply sequence_map_Some.
Qed.

Lemma lossy_encode s : forallb scalar s = true -> decode_lossy (encode s) = s.
Proof.
  intros H. unfold decode_lossy. rewrite <- (app_nil_r (encode s)), run_encode by assumption.
  cbn [run]. rewrite app_nil_r, map_map. apply map_id.
Qed.

(** Every byte starts nothing ([None]), an ASCII scalar, or a multi-byte sequence whose state is
    the one of [start_lead2/3/4]. *)
Lemma start_cases b :
  start b = ([None], D0) \/
  b < 128 \/
  (exists q, b = 192 + q /\ 2 <= q < 32) \/
  (exists q, b = 224 + q /\ q < 16) \/
  (exists q, b = 240 + q /\ q <= 4).
Proof.
  destruct (N.lt_ge_cases b 128); [tauto|].
  destruct (N.lt_ge_cases b 194); [left; unfold start; now rewrite ge_b, lt_b|].
  destruct (N.lt_ge_cases b 224); [do 2 right; left; exists (b - 192); lia|].
  destruct (N.lt_ge_cases b 240); [do 3 right; left; exists (b - 224); lia|].
  destruct (N.le_gt_cases b 244); [do 4 right; exists (b - 240); lia|].
  left. unfold start. now rewrite !ge_b, !(proj2 (N.eqb_neq _ _)) by lia.
Qed.

(** In a [DC] state whose window lies inside the continuation range, a run that reports no
    ill-formed part has consumed a byte [128 + x] of that window. *)
Lemma run_cont_inv n acc lo hi bs s : 128 <= lo -> hi <= 191 ->
  run (DC n acc lo hi) bs = map Some s ->
  exists x r, bs = 128 + x :: r /\ x < 64 /\ lo <= 128 + x <= hi /\
    match n with
    | O => Some (acc * 64 + x) :: run D0 r
    | S n' => run (DC n' (acc * 64 + x) 128 191) r
    end = map Some s.
Proof.
  intros Hlo Hhi H. destruct bs as [|b r]; [destruct s; discriminate|].
  cbn [run] in H. exists (b - 128), r.
  destruct (N.leb_spec lo b) as [L|L]; [destruct (N.leb_spec b hi) as [U|U]|].
  - replace b with (128 + (b - 128)) in H at 1 by lia. rewrite step_cont in H by lia.
    repeat split; [f_equal; lia|lia..|]. now destruct n.
  - cbn [step] in H. rewrite (proj2 (N.leb_le lo b)), (proj2 (N.leb_gt b hi)) in H by assumption.
    cbn [andb] in H. destruct (start b). destruct s; discriminate.
  - cbn [step] in H. rewrite (proj2 (N.leb_gt lo b)) in H by assumption.
    cbn [andb] in H. destruct (start b). destruct s; discriminate.
Qed.

Lemma run_D0_inv bs s : run D0 bs = map Some s ->
  match s with
  | [] => bs = []
  | c :: s' => exists r, bs = enc1 c ++ r /\ scalar c = true /\ run D0 r = map Some s'
  end.
Proof.
  destruct bs as [|b r]; cbn [run step].
  { destruct s; [reflexivity|discriminate]. }
  destruct (start_cases b) as [E|[Hb|[(q & -> & Hq)|[(q & -> & Hq)|(q & -> & Hq)]]]].
  - rewrite E. destruct s; discriminate.
  - rewrite start_ascii by assumption. destruct s as [|c s]; [discriminate|].
    intros [= -> H]. exists r. rewrite enc1_1 by assumption.
    repeat split; [apply scalar_spec; lia|assumption].
  - rewrite start_lead2 by assumption. cbn [app]. intros H.
    apply run_cont_inv in H as (x & r1 & -> & Hx & Hw & H); [|lia..].
    destruct s as [|c s]; [discriminate|].
    injection H as <- H. exists r1. rewrite enc1_2 by assumption.
    repeat split; [apply scalar_spec; lia|assumption].
  - rewrite start_lead3 by assumption. cbn [app]. intros H.
    apply run_cont_inv in H as (y & r1 & -> & Hy & Hw & H); [|window_cases; lia..].
    apply window3 in Hw; [|lia..].
    apply run_cont_inv in H as (x & r2 & -> & Hx & Hw' & H); [|lia..].
    destruct s as [|c s]; [discriminate|].
    injection H as <- H. exists r2.
    rewrite enc1_3 by lia; repeat split; [apply scalar_spec; lia|assumption].
  - rewrite start_lead4 by assumption. cbn [app]. intros H.
    apply run_cont_inv in H as (z & r1 & -> & Hz & Hw & H); [|window_cases; lia..].
    apply window4 in Hw; [|lia..].
    apply run_cont_inv in H as (y & r2 & -> & Hy & Hw' & H); [|lia..].
    apply run_cont_inv in H as (x & r3 & -> & Hx & Hw'' & H); [|lia..].
    destruct s as [|c s]; [discriminate|].
    injection H as <- H. exists r3.
    rewrite enc1_4 by lia; repeat split; [apply scalar_spec; lia|assumption].
Qed.

Lemma run_sound s : forall bs, run D0 bs = map Some s -> encode s = bs /\ forallb scalar s = true.
Proof.
  induction s as [|c s IH]; intros bs H; apply run_D0_inv in H.
  - subst. split; reflexivity.
  - destruct H as (r & -> & Hc & Hr). apply IH in Hr as [<- Hs].
    split; [reflexivity|]. cbn [forallb]. now rewrite Hc, Hs.
Qed.

Lemma decode_sound bs s : decode bs = Some s -> encode s = bs /\ forallb scalar s = true.
Proof. intros H. apply sequence_Some_inv in H. now apply run_sound. Qed.

Lemma lossy_of_valid bs s : decode bs = Some s -> decode_lossy bs = s.
Proof. intros H. apply decode_sound in H as [<- Hs]. now apply lossy_encode. Qed.

Lemma decode_iff bs s : decode bs = Some s <-> (encode s = bs /\ forallb scalar s = true).
Proof. split; [apply decode_sound|]. intros [<- H]. now apply decode_encode. Qed.

Lemma map_Some_inj (a b : list N) : map Some a = map Some b -> a = b.
Proof.
  revert b; induction a as [|x a IH]; destruct b; cbn; intros H; try discriminate; [reflexivity|].
  inversion H; subst. f_equal. now apply IH.
Qed.

Lemma encode_app a b : encode (a ++ b) = encode a ++ encode b.
Proof. unfold encode. now rewrite flat_map_app. Qed.

Lemma encode_prefix_app p s x : forallb scalar p = true -> forallb scalar s = true ->
  encode s = encode p ++ x -> exists b, s = p ++ b /\ x = encode b.
Proof.
  intros Hp Hs E.
  assert (R : map Some s = map Some p ++ run D0 x).
  { rewrite <- run_encode, <- E by assumption.
    rewrite <- (app_nil_r (encode s)), run_encode by assumption. cbn [run]. now rewrite app_nil_r. }
  apply map_eq_app in R as (p' & b & -> & Ep%map_Some_inj & _). subst p'.
  exists b. split; [reflexivity|]. rewrite encode_app in E. now apply app_inv_head in E.
Qed.

Lemma encode_prefix p s x : forallb scalar p = true -> forallb scalar s = true ->
  encode p ++ x = encode s -> firstn (length p) s = p /\ encode (skipn (length p) s) = x.
Proof.
  intros Hp Hs E. symmetry in E. apply encode_prefix_app in E as (b & -> & ->); [|assumption..].
  rewrite firstn_app, skipn_app, firstn_all, skipn_all, Nat.sub_diag.
  split; [apply app_nil_r|reflexivity].
Qed.

Lemma encode_inj a b : forallb scalar a = true -> forallb scalar b = true ->
  encode a = encode b -> a = b.
Proof.
  intros Ha Hb E. apply map_Some_inj.
  rewrite <- (app_nil_r (map Some a)), <- (app_nil_r (map Some b)).
  change (@nil (option N)) with (run D0 []). rewrite <- !run_encode by assumption. now rewrite E.
Qed.

Lemma is_cont_payload x : x < 64 -> is_cont (128 + x) = true.
Proof. intros H. unfold is_cont. now rewrite !(proj2 (N.leb_le _ _)) by lia. Qed.

Lemma is_cont_lead t q : 192 <= t -> is_cont (t + q) = false.
Proof.
  intros H. unfold is_cont. apply andb_false_iff. right. apply N.leb_gt. lia.
Qed.

Lemma enc1_shape c :
  exists h t, enc1 c = h :: t /\ is_cont h = false /\ forallb is_cont t = true.
Proof.
  unfold enc1.
  destruct (N.ltb_spec c 128); [|destruct (N.ltb_spec c 2048); [|destruct (N.ltb_spec c 65536)]];
    eexists; eexists; (split; [reflexivity|]); cbn [forallb];
    rewrite ?is_cont_payload by (now apply N.mod_lt); (split; [|reflexivity]).
  - unfold is_cont. now rewrite (proj2 (N.leb_gt 128 c)).
  - now apply is_cont_lead.
  - now apply is_cont_lead.
  - now apply is_cont_lead.
Qed.

Lemma enc1_nonempty c : enc1 c <> [].
Proof. destruct (enc1_shape c) as (h & t & -> & _). discriminate. Qed.

Lemma scalar_le c : scalar c = true -> c <= 1114111.
Proof. intros H. apply scalar_spec in H. lia. Qed.

Lemma length_enc1 c : (1 <= length (enc1 c) <= 4)%nat.
Proof.
  unfold enc1. destruct (c <? 128); [cbn; lia|]. destruct (c <? 2048); [cbn; lia|].
  destruct (c <? 65536); cbn; lia.
Qed.

Example utf8_ex1 : encode [97; 233; 19990; 128512] = [97; 195; 169; 228; 184; 150; 240; 159; 152; 128].
Proof. reflexivity. Qed.
Example utf8_ex2 : decode [97; 195; 169; 228; 184; 150; 240; 159; 152; 128] = Some [97; 233; 19990; 128512].
Proof. reflexivity. Qed.
Example utf8_ex3 : decode [237; 160; 128] = None /\ decode [192; 128] = None /\ decode [244; 144; 128; 128] = None.
Proof. repeat split. Qed.
Example utf8_ex4 : decode_lossy [97; 240; 159; 152; 98; 128; 237; 160; 128] = [97; 65533; 98; 65533; 65533; 65533; 65533].
Proof. reflexivity. Qed.
