(** More instances of [Sem.Needed.unforced_irrelevant]: thunks allocated together (the bindings of a
    `local`, the elements of an array literal), any subset of which is never started. *)
From Coq Require Import List ZArith NArith Lia.
From JrV Require Import Sem.Syntax Sem.Interp Sem.Store Sem.Needed.
Import ListNotations.

Lemma alloc_many_eq cs : forall s,
  alloc_many cs s = (Ok (seq (length (cells s)) (length cs)), with_cells s (cells s ++ cs)).
Proof.
  induction cs as [|c t IH]; intro s.
  - cbn. unfold ret, with_cells. rewrite app_nil_r. destruct s; reflexivity.
  - cbn [alloc_many]. unfold bind at 1. unfold alloc at 1. unfold bind at 1. rewrite IH.
    unfold ret, with_cells. cbn [cells fcache lcache asserted next_oid log length seq].
    rewrite app_length, Nat.add_1_r, <- app_assoc. reflexivity.
Qed.

(** thunks with [keep i = false] may differ; the stores are similar outside those positions *)
Definition dropped (keep : nat -> bool) (base len : nat) (loc : nat) : Prop :=
  exists i, loc = base + i /\ i < len /\ keep i = false.

Lemma sim_appended keep s cs cs' :
  length cs' = length cs ->
  (forall i, keep i = true -> nth_error cs' i = nth_error cs i) ->
  Forall (fun c => is_wait c = true) cs -> Forall (fun c => is_wait c = true) cs' ->
  sim (dropped keep (length (cells s)) (length cs))
      (with_cells s (cells s ++ cs)) (with_cells s (cells s ++ cs')).
Proof.
  intros Hlen Hk Hw Hw'. constructor; cbn; auto; [|rewrite !app_length, Hlen; reflexivity].
  intro loc. destruct (Nat.lt_ge_cases loc (length (cells s))) as [Hlt|Hge].
  { left. rewrite !nth_error_app1 by exact Hlt. reflexivity. }
  rewrite !nth_error_app2 by exact Hge. set (i := loc - length (cells s)).
  destruct (keep i) eqn:Ek; [left; symmetry; apply Hk, Ek|].
  destruct (nth_error cs i) as [c|] eqn:E1.
  - assert (Hi : i < length cs) by (apply nth_error_Some; congruence).
    destruct (nth_error cs' i) as [c'|] eqn:E2; [|apply nth_error_None in E2; lia].
    right. split; [exists i; unfold i; repeat split; auto; lia|]. exists c, c'.
    rewrite Forall_forall in Hw, Hw'.
    repeat split; [eapply Hw|eapply Hw']; eapply nth_error_In; eassumption.
  - left. symmetry. apply nth_error_None. apply nth_error_None in E1. lia.
Qed.

Theorem appended_irrelevant keep A (m : M A) s cs cs' r s' :
  sem_fn A m -> length cs' = length cs ->
  (forall i, keep i = true -> nth_error cs' i = nth_error cs i) ->
  Forall (fun c => is_wait c = true) cs -> Forall (fun c => is_wait c = true) cs' ->
  m (with_cells s (cells s ++ cs)) = (r, s') ->
  (forall i, i < length cs -> keep i = false ->
             exists c, nth_error (cells s') (length (cells s) + i) = Some c /\ is_wait c = true) ->
  exists s2', m (with_cells s (cells s ++ cs')) = (r, s2') /\ log s2' = log s'.
Proof.
  intros Hm Hlen Hk Hw Hw' H Hu.
  destruct (unforced_irrelevant _ _ _ Hm _ _ _ _ (sim_appended keep s cs cs' Hlen Hk Hw Hw') H)
    as (s2' & H2 & Hs').
  - intros loc c (i & -> & Hi & Ek) Hc. destruct (Hu i Hi Ek) as (c' & Hc' & Hw''). congruence.
  - exists s2'. split; [exact H2|]. symmetry. apply (sim_log _ _ _ Hs').
Qed.

Lemma Forall_wait_map {B} (f : B -> cell) l : (forall b, is_wait (f b) = true) -> Forall (fun c => is_wait c = true) (map f l).
Proof. intro H. apply Forall_forall. intros c Hin. apply in_map_iff in Hin. destruct Hin as (b & <- & _). apply H. Qed.

Definition local_env (ev : env) (bs : list (ident * expr)) (base : nat) : env :=
  combine (map fst bs) (seq base (length bs)) ++ ev.

Lemma eval_local n ev oc bs body s :
  eval (S n) ev oc (ELocal bs body) s =
  if has_dup_id (map fst bs) then (Err KType, s)
  else eval n (local_env ev bs (length (cells s))) oc body
            (with_cells s (cells s ++ map (fun b => CWait (local_env ev bs (length (cells s))) oc (snd b)) bs)).
Proof.
  cbn [eval]. destruct (has_dup_id (map fst bs)); [reflexivity|].
  unfold bind at 1. unfold get_store. unfold bind at 1. rewrite alloc_many_eq.
  unfold local_env. reflexivity.
Qed.

(** non-vacuity: local a = trace(1, 10), b = trace(2, error), c = trace(3, a + 1); c  — b never runs *)
Example unused_locals_example :
  let bs := [(1%N, ETrace 1 (ENum 10)); (2%N, ETrace 2 (EError ENull)); (3%N, ETrace 3 (EBin BAdd (EVar 1%N) (ENum 1)))] in
  let r := eval 30 [] no_octx (ELocal bs (EVar 3%N)) empty_store in
  fst r = Ok (VNum 11) /\ log (snd r) = [1%N; 3%N] /\
  map is_wait (cells (snd r)) = [false; true; false].
Proof. vm_compute. repeat split; reflexivity. Qed.

Lemma eval_arr n ev oc es s :
  eval (S n) ev oc (EArr es) s =
  (Ok (VArr (seq (length (cells s)) (length es))),
   with_cells s (cells s ++ map (fun x => CWait ev oc x) es)).
Proof.
  cbn [eval]. unfold bind at 1. rewrite alloc_many_eq, map_length. reflexivity.
Qed.

(** non-vacuity: [trace(1, 10), trace(2, error), trace(3, 30)], elements 2 then 0 read *)
Example unread_elements_example :
  let es := [ETrace 1 (ENum 10); ETrace 2 (EError ENull); ETrace 3 (ENum 30)] in
  let k := fun v => match v with VArr [a; _; c] => force 20 c ;;; force 20 a | _ => fail KType end in
  let r := (v <- eval 30 [] no_octx (EArr es) ;; k v) empty_store in
  fst r = Ok (VNum 10) /\ log (snd r) = [1%N; 3%N] /\ map is_wait (cells (snd r)) = [false; true; false].
Proof. vm_compute. repeat split; reflexivity. Qed.

Example unread_elements_example_continuation :
  forall v, sem_fn _ (match v with VArr [a; _; c] => force 20 c ;;; force 20 a | _ => fail KType end).
Proof.
  intro v. destruct v; try apply sf_fail.
  destruct cells as [|a [|b [|c [|d t]]]]; try apply sf_fail.
  apply sf_bind; [apply sf_force|intro; apply sf_force].
Qed.
