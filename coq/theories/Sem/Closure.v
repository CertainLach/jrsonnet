(** The induction principle of the reference interpreter [Sem].  Its functions are built from [ret],
    [fail], [bind], the store primitives, calls of each other at the next lower fuel, and two places
    that inspect an error.  A relation [R] closed under these constructions relates every function
    at fuel [S n] to itself at fuel [S m] if it does so at [n] and [m] ([rel_step]).  A predicate is
    a relation that ignores its second argument. *)
From Coq Require Import List ZArith NArith.
From JrV Require Import Sem.Syntax Sem.Interp.
Import ListNotations.

(** the error handler of [run_asserts] *)
Definition catch_assert {A} (oid : nat) (m : M A) : M unit :=
  fun s0 => match m s0 with
            | (Ok _, s') => (set_asserted oid None ;;; set_asserted oid (Some true)) s'
            | (Err k, s') => (set_asserted oid None ;;; fail k) s'
            end.

Section Closure.
  Variable R : forall A : Type, M A -> M A -> Prop.

  Hypothesis R_ret : forall A (a : A), R A (ret a) (ret a).
  Hypothesis R_fail : forall A k, R A (fail k) (fail k).
  Hypothesis R_bind : forall A B (m m' : M A) (f f' : A -> M B),
      R A m m' -> (forall a, R B (f a) (f' a)) -> R B (bind m f) (bind m' f').
  Hypothesis R_alloc : forall c, R _ (alloc c) (alloc c).
  Hypothesis R_fresh_oid : R _ fresh_oid fresh_oid.
  Hypothesis R_log_label : forall l, R _ (log_label l) (log_label l).
  Hypothesis R_add_fcache : forall oid nm up loc, R _ (add_fcache oid nm up loc) (add_fcache oid nm up loc).
  Hypothesis R_add_lcache : forall oid i e, R _ (add_lcache oid i e) (add_lcache oid i e).
  Hypothesis R_set_asserted : forall oid st, R _ (set_asserted oid st) (set_asserted oid st).
  (** the interpreter reads the store as a whole only to look at the number of cells, the two
      caches and the assertion states *)
  Hypothesis R_get_store : forall B (f f' : store -> M B)
      (k k' : nat -> list (nat * str * nat * nat) -> list (nat * nat * env) -> list (nat * bool) -> M B),
      (forall s, f s = k (length (cells s)) (fcache s) (lcache s) (asserted s)) ->
      (forall s, f' s = k' (length (cells s)) (fcache s) (lcache s) (asserted s)) ->
      (forall a b c d, R B (k a b c d) (k' a b c d)) -> R B (bind get_store f) (bind get_store f').
  Hypothesis R_force : forall n m loc,
      (forall ev oc x, R _ (eval n ev oc x) (eval m ev oc x)) ->
      (forall oid ls nm up, R _ (field_raw n oid ls nm up) (field_raw m oid ls nm up)) ->
      R _ (force (S n) loc) (force (S m) loc).
  Hypothesis R_catch_assert : forall A (m m' : M A) oid,
      R _ m m' -> R _ (catch_assert oid m) (catch_assert oid m').

  Lemma R_mapM A B (f f' : A -> M B) l : (forall a, R _ (f a) (f' a)) -> R _ (mapM f l) (mapM f' l).
  Proof.
    intro H. induction l as [|x t IH]; cbn [mapM]; [apply R_ret|].
    apply R_bind; [apply H|]. intro y. apply R_bind; [apply IH|]. intro r. apply R_ret.
  Qed.

  Lemma R_alloc_many cs : R _ (alloc_many cs) (alloc_many cs).
  Proof.
    induction cs as [|c t IH]; cbn [alloc_many]; [apply R_ret|].
    apply R_bind; [apply R_alloc|]. intro l. apply R_bind; [apply IH|]. intro r. apply R_ret.
  Qed.

  Lemma R_retnum z : R _ (retnum z) (retnum z).
  Proof. unfold retnum, num. destruct (Z.abs z <=? two53)%Z; [apply R_ret|apply R_fail]. Qed.

  Definition rel_at (n m : nat) : Prop :=
    (forall ev oc e, R _ (eval n ev oc e) (eval m ev oc e)) /\
    (forall loc, R _ (force n loc) (force m loc)) /\
    (forall ev oc sp, R _ (comp n ev oc sp) (comp m ev oc sp)) /\
    (forall oid ls nm up, R _ (getfield n oid ls nm up) (getfield m oid ls nm up)) /\
    (forall oid ls nm up, R _ (field_raw n oid ls nm up) (field_raw m oid ls nm up)) /\
    (forall oid ls i, R _ (member_env n oid ls i) (member_env m oid ls i)) /\
    (forall oid ls, R _ (run_asserts n oid ls) (run_asserts m oid ls)) /\
    (forall oid ls i, R _ (assert_layer n oid ls i) (assert_layer m oid ls i)) /\
    (forall o a b, R _ (binop_val n o a b) (binop_val m o a b)) /\
    (forall a b, R _ (equals n a b) (equals m a b)) /\
    (forall a b, R _ (compare_val n a b) (compare_val m a b)).

  (** find [k] by abstracting the four projections out of [f s] *)
  Ltac get_store_step :=
    eapply R_get_store;
    [ let s := fresh "s" in
      intro s; cbv beta;
      match goal with
      | |- ?lhs = ?k _ _ _ _ =>
          let t := eval pattern (length (cells s)), (fcache s), (lcache s), (asserted s) in lhs in
          match t with ?f _ _ _ _ => unify k f end
      end; reflexivity ..
    | intros; cbv beta ].

  (** one step, chosen by the head of the left computation.  The only bare lambda left in a body is
      the handler of [run_asserts], [catch_assert oid (mapM ..)] by conversion.  Left over: calls at
      the lower fuel and of a local [fix], which are hypotheses *)
  Ltac closure_step :=
    lazymatch goal with
    | |- R _ (ret _) _ => apply R_ret
    | |- R _ (fail _) _ => apply R_fail
    | |- R _ (retnum _) _ => apply R_retnum
    | |- R _ (alloc _) _ => apply R_alloc
    | |- R _ (alloc_many _) _ => apply R_alloc_many
    | |- R _ fresh_oid _ => apply R_fresh_oid
    | |- R _ (log_label _) _ => apply R_log_label
    | |- R _ (add_fcache _ _ _ _) _ => apply R_add_fcache
    | |- R _ (add_lcache _ _ _) _ => apply R_add_lcache
    | |- R _ (set_asserted _ _) _ => apply R_set_asserted
    | |- R _ (bind get_store _) _ => get_store_step
    | |- R _ (bind _ _) _ => apply R_bind; [|intro]
    | |- R _ (mapM _ _) _ => apply R_mapM; intro
    | |- R _ (match ?x with _ => _ end) _ => destruct x
    | |- R _ (fun _ => _) _ => apply R_catch_assert
    | |- _ => solve [trivial]
    end.

  Definition rel_all (n m : nat) : Prop :=
    rel_at n m /\ forall v, R _ (manifest n v) (manifest m v).

  Theorem rel_step n m : rel_all n m -> rel_all (S n) (S m).
  Proof.
    intros ((He & Hf & Hc & Hg & Hr & Hm & Ha & Hl & Hb & Hq & Hcmp) & Hj).
    repeat split. (* the conjuncts of [rel_at] in their order, then [manifest] *)
    - intros ev oc e; destruct e; simpl; repeat closure_step.
    - intros; apply R_force; assumption.
    - intros ev oc sp; destruct sp as [|[]]; simpl; repeat closure_step.
    - intros; simpl; repeat closure_step.
    - intros; simpl; repeat closure_step.
    - intros; simpl; repeat closure_step.
    - intros; simpl; repeat closure_step.
    - intros; simpl; repeat closure_step.
    - intros; simpl; repeat closure_step.
    - (* equals: each local [fix go] by induction on its list *)
      intros a b; destruct a, b; simpl; repeat closure_step.
      + generalize (combine cells cells0). intro l.
        induction l as [|[p q] t IHgo]; simpl; repeat closure_step.
      + generalize (visible_names layers). intro l.
        induction l as [|nm t IHgo]; simpl; repeat closure_step.
    - intros a b; destruct a, b; simpl; repeat closure_step.
      revert cells0. induction cells as [|p t IHgo]; intros [|q t2]; simpl; repeat closure_step.
    - intro v; destruct v; simpl; repeat closure_step.
  Qed.
End Closure.
