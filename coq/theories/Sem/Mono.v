(** Fuel monotonicity of the reference interpreter [Sem]: an answer that is not "out of fuel" does not
    depend on the fuel.  The FUEL constant of the correspondence checks selects which programs are
    judged, never what the judgement is. *)
From Coq Require Import List ZArith NArith Lia.
From JrV Require Import Sem.Syntax Sem.Interp Sem.Closure.
Import ListNotations.

Definition le {A} (m m' : M A) : Prop :=
  forall s, fst (m s) = Err KFuel \/ m s = m' s.

Lemma le_refl {A} (m : M A) : le m m.
Proof. intro s; right; reflexivity. Qed.

Lemma le_fuel {A} (m' : M A) : le (fail KFuel) m'.
Proof. intro s; left; reflexivity. Qed.

Lemma bind_le {A B} (m m' : M A) (f f' : A -> M B) :
  le m m' -> (forall a, le (f a) (f' a)) -> le (bind m f) (bind m' f').
Proof.
  intros Hm Hf s. unfold bind. destruct (Hm s) as [H|H].
  - left. destruct (m s) as [[a|k] s1]; simpl in *; [discriminate|]. inversion H; reflexivity.
  - rewrite H. destruct (m' s) as [[a|k] s1]; [apply Hf | right; reflexivity].
Qed.

(** the two places where the interpreter inspects an error *)
Lemma catch_cell_le {A B} (m m' : M A) (k1 : A -> M B) (k2 : errk -> M B) :
  le m m' ->
  le (fun s => match m s with
               | (Ok v, s') => k1 v s'
               | (Err KFuel, s') => (Err KFuel, s')
               | (Err k, s') => k2 k s'
               end)
     (fun s => match m' s with
               | (Ok v, s') => k1 v s'
               | (Err KFuel, s') => (Err KFuel, s')
               | (Err k, s') => k2 k s'
               end).
Proof.
  intros Hm s. destruct (Hm s) as [H|H].
  - left. destruct (m s) as [[a|k] s1]; simpl in *; [discriminate|]. inversion H; reflexivity.
  - rewrite H. right; reflexivity.
Qed.

Lemma catch_assert_le {A} (m m' : M A) (oid : nat) :
  le m m' -> le (catch_assert oid m) (catch_assert oid m').
Proof.
  intros Hm s. unfold catch_assert. destruct (Hm s) as [H|H].
  - left. destruct (m s) as [[a|k] s1]; simpl in *; [discriminate|]. inversion H; reflexivity.
  - rewrite H. right; reflexivity.
Qed.

Definition mono_at (n m : nat) : Prop :=
  (forall ev oc e, le (eval n ev oc e) (eval m ev oc e)) /\
  (forall loc, le (force n loc) (force m loc)) /\
  (forall ev oc sp, le (comp n ev oc sp) (comp m ev oc sp)) /\
  (forall oid ls nm up, le (getfield n oid ls nm up) (getfield m oid ls nm up)) /\
  (forall oid ls nm up, le (field_raw n oid ls nm up) (field_raw m oid ls nm up)) /\
  (forall oid ls i, le (member_env n oid ls i) (member_env m oid ls i)) /\
  (forall oid ls, le (run_asserts n oid ls) (run_asserts m oid ls)) /\
  (forall oid ls i, le (assert_layer n oid ls i) (assert_layer m oid ls i)) /\
  (forall o a b, le (binop_val n o a b) (binop_val m o a b)) /\
  (forall a b, le (equals n a b) (equals m a b)) /\
  (forall a b, le (compare_val n a b) (compare_val m a b)).

Lemma get_store_le {B} (f f' : store -> M B) k k' :
  (forall s, f s = k (length (cells s)) (fcache s) (lcache s) (asserted s)) ->
  (forall s, f' s = k' (length (cells s)) (fcache s) (lcache s) (asserted s)) ->
  (forall a b c d, le (k a b c d) (k' a b c d)) -> le (bind get_store f) (bind get_store f').
Proof. intros Hf Hf' Hk s. unfold bind, get_store. rewrite Hf, Hf'. apply Hk. Qed.

Lemma force_le n m loc :
  (forall ev oc x, le (eval n ev oc x) (eval m ev oc x)) ->
  (forall oid ls nm up, le (field_raw n oid ls nm up) (field_raw m oid ls nm up)) ->
  le (force (S n) loc) (force (S m) loc).
Proof.
  intros He Hr. cbn [force]. apply bind_le; [apply le_refl|].
  intros []; try apply le_refl; (apply bind_le; [apply le_refl|intros _]); apply catch_cell_le; auto.
Qed.

Lemma mono_all n : forall m, n <= m -> mono_at n m /\ forall v, le (manifest n v) (manifest m v).
Proof.
  induction n as [|n IH]; intros m Hle.
  - repeat split; intros; apply le_fuel.
  - destruct m as [|m]; [lia|].
    (* [le] is reflexive, which settles [ret], [fail] and the six store primitives *)
    refine (rel_step (@le) _ _ (@bind_le) _ _ _ _ _ _ (@get_store_le) force_le (@catch_assert_le)
              n m (IH m _)).
    all: try (intros; apply le_refl).
    lia.
Qed.

Theorem sem_mono : forall n m, n <= m -> mono_at n m.
Proof. intros n m H. exact (proj1 (mono_all n m H)). Qed.

Lemma manifest_mono : forall n m v, n <= m -> le (manifest n v) (manifest m v).
Proof. intros n m v H. exact (proj2 (mono_all n m H) v). Qed.

Theorem run_fuel_independent : forall n m e,
  n <= m -> fst (run n e) <> OErr KFuel -> run m e = run n e.
Proof.
  intros n m e Hle Hne. unfold run in *.
  destruct (sem_mono n m Hle) as (He & _).
  assert (H : le (v <- eval n [] no_octx e ;; manifest n v) (v <- eval m [] no_octx e ;; manifest m v)).
  { apply bind_le; [apply He|]. intro v. apply manifest_mono; assumption. }
  destruct (H empty_store) as [Hf|Heq].
  - exfalso. apply Hne.
    destruct ((v <- eval n [] no_octx e ;; manifest n v) empty_store) as [[j|k] s]; simpl in *;
      [discriminate|]. inversion Hf; reflexivity.
  - rewrite Heq. reflexivity.
Qed.

(** non-vacuity: a local shared by two array elements *)
Example run_fuel_independent_applies :
  fst (run 50 (ELocal [(1%N, EBin BAdd (ENum 1) (ENum 2))] (EArr [EVar 1%N; EVar 1%N]))) <> OErr KFuel.
Proof. vm_compute. discriminate. Qed.
