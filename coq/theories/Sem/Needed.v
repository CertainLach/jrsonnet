(** "Nothing unneeded runs" for the reference interpreter [Sem]: if a call ends with every cell of a
    set [D] still waiting, the same call on a store that differs only in what those cells contain
    gives the same result and stores that again differ only there - so the same trace log.  Instance
    of [Sem.Store.sem_fn_good]. *)
From Coq Require Import List ZArith NArith.
From JrV Require Import Sem.Syntax Sem.Interp Sem.Closure Sem.Store.
Import ListNotations.

Lemma force_starts n loc s c r s' :
  nth_error (cells s) loc = Some c -> is_wait c = true -> force (S n) loc s = (r, s') ->
  exists c', nth_error (cells s') loc = Some c' /\ is_wait c' = false.
Proof. intros H Hw Hf. apply (force_wait_post _ _ _ _ _ _ H Hw (cell_body_ext _ _ _) Hf). Qed.

Definition with_cells (s : store) (cs : list cell) : store :=
  mkStore cs (fcache s) (lcache s) (asserted s) (next_oid s) (log s).

Section Needed.
  Variable D : nat -> Prop.

  (** stores that agree except for what waiting cells at locations in [D] contain *)
  Record sim (s1 s2 : store) : Prop := mkSim {
    sim_cells : forall loc,
        nth_error (cells s1) loc = nth_error (cells s2) loc \/
        (D loc /\ exists c1 c2, nth_error (cells s1) loc = Some c1 /\ nth_error (cells s2) loc = Some c2 /\
                                is_wait c1 = true /\ is_wait c2 = true);
    sim_len : length (cells s1) = length (cells s2);
    sim_fcache : fcache s1 = fcache s2;
    sim_lcache : lcache s1 = lcache s2;
    sim_asserted : asserted s1 = asserted s2;
    sim_oid : next_oid s1 = next_oid s2;
    sim_log : log s1 = log s2
  }.

  Definition unstarted (s : store) : Prop :=
    forall loc c, D loc -> nth_error (cells s) loc = Some c -> is_wait c = true.

  Definition indep {A} (m : M A) : Prop :=
    forall s1 s2 r s1', sim s1 s2 -> m s1 = (r, s1') -> unstarted s1' ->
                        exists s2', m s2 = (r, s2') /\ sim s1' s2'.

  Definition needed_good : forall A : Type, M A -> Prop := fun A m => ext_m m /\ indep m.

  Lemma sim_refl s : sim s s.
  Proof. constructor; auto. Qed.

  Lemma unstarted_back s s' : ext s s' -> unstarted s' -> unstarted s.
  Proof.
    intros He Hu loc c HD Hc. destruct (ext_cells _ _ He _ _ Hc) as (c' & Hc' & [->|[Hw _]]); [|exact Hw].
    eapply Hu; eassumption.
  Qed.

  Lemma sim_same_cells s1 s2 s1' s2' :
    sim s1 s2 -> cells s1' = cells s1 -> cells s2' = cells s2 ->
    fcache s1' = fcache s2' -> lcache s1' = lcache s2' -> asserted s1' = asserted s2' ->
    next_oid s1' = next_oid s2' -> log s1' = log s2' -> sim s1' s2'.
  Proof.
    intros [C L _ _ _ _ _] H1 H2 ? ? ? ? ?. constructor; auto; rewrite H1, H2; assumption.
  Qed.

  Lemma sim_upd s1 s2 loc c : sim s1 s2 -> sim (upd s1 loc c) (upd s2 loc c).
  Proof.
    intros [C L F M A O G]. constructor; cbn; auto; [|rewrite !set_nth_length; exact L].
    intro x. rewrite !nth_set_nth. destruct (Nat.eqb_spec loc x) as [->|Hne]; [|apply C].
    left. destruct (C x) as [->|(_ & c1 & c2 & -> & -> & _)]; reflexivity.
  Qed.

  Lemma sim_alloc s1 s2 c : sim s1 s2 -> sim (snd (alloc c s1)) (snd (alloc c s2)).
  Proof.
    intros [C L F M A O G]. constructor; cbn; auto; [|rewrite !app_length, L; reflexivity].
    intro x. rewrite !nth_error_snoc, <- L.
    destruct (Nat.ltb x (length (cells s1))); [apply C|]. left; reflexivity.
  Qed.

  (** treating similar stores alike whether or not [D]-cells are started, as all primitives do *)
  Lemma ng_total A (m : M A) :
    ext_m m ->
    (forall s1 s2, sim s1 s2 -> fst (m s1) = fst (m s2) /\ sim (snd (m s1)) (snd (m s2))) ->
    needed_good A m.
  Proof.
    intros He Ht. split; [exact He|]. intros s1 s2 r s1' Hs H _.
    destruct (Ht _ _ Hs) as [Hr Hs']. rewrite H in Hr, Hs'. cbn [fst snd] in Hr, Hs'.
    exists (snd (m s2)). split; [rewrite Hr; apply surjective_pairing|exact Hs'].
  Qed.

  Lemma ng_ret A (a : A) : needed_good A (ret a).
  Proof. apply ng_total; [apply ext_m_ret|]. intros s1 s2 Hs. split; [reflexivity|exact Hs]. Qed.
  Lemma ng_fail A k : needed_good A (fail k).
  Proof. apply ng_total; [apply ext_m_fail|]. intros s1 s2 Hs. split; [reflexivity|exact Hs]. Qed.

  Lemma ng_alloc c : needed_good _ (alloc c).
  Proof.
    apply ng_total; [apply ext_m_alloc|]. intros s1 s2 Hs. split; [|apply sim_alloc, Hs].
    cbn. rewrite (sim_len _ _ Hs). reflexivity.
  Qed.

  (** the remaining primitives neither look at the cells nor touch them *)
  Lemma ng_cell_blind A (m : M A) :
    ext_m m -> (forall s cs, m (with_cells s cs) = (fst (m s), with_cells (snd (m s)) cs)) ->
    needed_good A m.
  Proof.
    intros He Hb. apply ng_total; [exact He|]. intros s1 s2 [C L F M' A' O G].
    assert (E2 : s2 = with_cells s1 (cells s2))
      by (destruct s1, s2; unfold with_cells; cbn in *; subst; reflexivity).
    assert (Hc : cells (snd (m s1)) = cells s1).
    { replace s1 with (with_cells s1 (cells s1)) at 1 by (destruct s1; reflexivity).
      rewrite Hb. reflexivity. }
    rewrite E2, Hb. cbn [fst snd]. split; [reflexivity|].
    constructor; cbn; rewrite ?Hc; auto.
  Qed.

  Lemma ng_fresh_oid : needed_good _ fresh_oid.
  Proof. apply ng_cell_blind; [apply ext_m_fresh_oid|reflexivity]. Qed.
  Lemma ng_log_label l : needed_good _ (log_label l).
  Proof. apply ng_cell_blind; [apply ext_m_log_label|reflexivity]. Qed.
  Lemma ng_add_fcache oid nm up loc : needed_good _ (add_fcache oid nm up loc).
  Proof. apply ng_cell_blind; [apply ext_m_add_fcache|reflexivity]. Qed.
  Lemma ng_add_lcache oid i e : needed_good _ (add_lcache oid i e).
  Proof. apply ng_cell_blind; [apply ext_m_add_lcache|reflexivity]. Qed.
  Lemma ng_set_asserted oid st : needed_good _ (set_asserted oid st).
  Proof. apply ng_cell_blind; [apply ext_m_set_asserted|reflexivity]. Qed.

  Lemma ng_bind A B (m : M A) (f : A -> M B) :
    needed_good A m -> (forall a, needed_good B (f a)) -> needed_good B (bind m f).
  Proof.
    intros [Em Im] Hf. split; [apply ext_m_bind; [exact Em|intro a; apply Hf]|].
    intros s1 s2 r s1' Hs H Hu. unfold bind in *.
    destruct (m s1) as [[a|k] s1m] eqn:E1.
    - destruct (Hf a) as [Ef If]. pose proof (Ef s1m) as Hext. rewrite H in Hext. cbn [snd] in Hext.
      destruct (Im _ _ _ _ Hs E1 (unstarted_back _ _ Hext Hu)) as (s2m & E2 & Hs2).
      rewrite E2. eapply If; eassumption.
    - injection H as <- <-. destruct (Im _ _ _ _ Hs E1 Hu) as (s2m & E2 & Hs2).
      rewrite E2. exists s2m. auto.
  Qed.

  Lemma ng_get_store B (f : store -> M B)
        (k : nat -> list (nat * str * nat * nat) -> list (nat * nat * env) -> list (nat * bool) -> M B) :
    (forall s, f s = k (length (cells s)) (fcache s) (lcache s) (asserted s)) ->
    (forall a b c d, needed_good B (k a b c d)) -> needed_good B (bind get_store f).
  Proof.
    intros Hf Hk. split; [eapply ext_m_get_store; [exact Hf|intros; apply Hk]|].
    intros s1 s2 r s1' Hs H Hu. unfold bind, get_store in *. rewrite Hf in *.
    destruct Hs as [C L F M A O G]. rewrite <- L, <- F, <- M, <- A.
    eapply (proj2 (Hk _ _ _ _)); [constructor; eassumption|exact H|exact Hu].
  Qed.

  Lemma ng_catch_assert A (m : M A) oid : needed_good _ m -> needed_good _ (catch_assert oid m).
  Proof.
    intros [Em Im]. split; [apply ext_m_catch_assert; exact Em|].
    intros s1 s2 r s1' Hs H Hu. unfold catch_assert in *.
    destruct (m s1) as [ra s1m] eqn:E1.
    assert (Hu1 : unstarted s1m).
    { destruct ra; unfold bind, set_asserted, fail in H; injection H as <- <-; exact Hu. }
    destruct (Im _ _ _ _ Hs E1 Hu1) as (s2m & E2 & Hs2). rewrite E2.
    destruct ra as [a|k].
    - eapply (proj2 (ng_bind _ _ (set_asserted oid None) (fun _ => set_asserted oid (Some true))
                             (ng_set_asserted _ _) (fun _ => ng_set_asserted _ _))); eassumption.
    - eapply (proj2 (ng_bind _ _ (set_asserted oid None) (fun _ => @fail unit k)
                             (ng_set_asserted _ _) (fun _ => ng_fail _ _))); eassumption.
  Qed.

  Lemma unstarted_upd_other s loc c : ~ D loc -> unstarted (upd s loc c) -> unstarted s.
  Proof.
    intros HD Hu x cx Hx Hc. apply (Hu x cx Hx). cbn. rewrite nth_set_nth.
    destruct (Nat.eqb_spec loc x) as [->|]; [contradiction|exact Hc].
  Qed.

  Lemma ng_force n loc :
    (forall ev oc x, needed_good _ (eval n ev oc x)) ->
    (forall oid ls nm up, needed_good _ (field_raw n oid ls nm up)) ->
    needed_good _ (force (S n) loc).
  Proof.
    intros He Hr. split; [apply ext_m_force; intros; [apply He|apply Hr]|].
    intros s1 s2 r s1' Hs H Hu.
    destruct (nth_error (cells s1) loc) as [c1|] eqn:E1.
    2:{ rewrite (force_nocell _ _ _ E1) in H. injection H as <- <-.
        destruct (sim_cells _ _ Hs loc) as [E|(_ & c1 & c2 & E & _)]; [|congruence].
        rewrite E1 in E. rewrite (force_nocell _ _ _ (eq_sym E)). exists s2. auto. }
    destruct (is_wait c1) eqn:Hw.
    - assert (HD : ~ D loc).
      { intro HD. destruct (force_starts _ _ _ _ _ _ E1 Hw H) as (c' & Hc' & Hw').
        rewrite (Hu _ _ HD Hc') in Hw'. discriminate. }
      assert (E2 : nth_error (cells s2) loc = Some c1).
      { destruct (sim_cells _ _ Hs loc) as [E|(HD' & _)]; [congruence|contradiction]. }
      rewrite (force_wait _ _ _ _ E1 Hw) in H. rewrite (force_wait _ _ _ _ E2 Hw).
      assert (Ib : indep (cell_body n c1)).
      { destruct c1; cbn [cell_body]; first [apply He|apply Hr|apply ng_fail]. }
      pose proof (sim_upd _ _ loc CPend Hs) as Hs1.
      destruct (cell_body n c1 (upd s1 loc CPend)) as [[v|k] s1b] eqn:Eb.
      + injection H as <- <-.
        destruct (Ib _ _ _ _ Hs1 Eb (unstarted_upd_other _ _ _ HD Hu)) as (s2b & Eb2 & Hs2).
        rewrite Eb2. eexists; split; [reflexivity|]. apply sim_upd; exact Hs2.
      + assert (Hu1 : unstarted s1b).
        { destruct k; injection H as <- <-; first [exact Hu|eapply unstarted_upd_other; eassumption]. }
        destruct (Ib _ _ _ _ Hs1 Eb Hu1) as (s2b & Eb2 & Hs2). rewrite Eb2.
        destruct k; injection H as <- <-; eexists; (split; [reflexivity|]);
          first [exact Hs2|apply sim_upd; exact Hs2].
    - rewrite (force_nonwait _ _ _ _ E1 Hw) in H. injection H as <- <-.
      assert (E2 : nth_error (cells s2) loc = Some c1).
      { destruct (sim_cells _ _ Hs loc) as [E|(_ & c1' & c2 & E & _ & Hw1 & _)]; [congruence|].
        rewrite E1 in E. injection E as <-. congruence. }
      rewrite (force_nonwait _ _ _ _ E2 Hw). exists s2. auto.
  Qed.

  Theorem sem_fn_needed : forall A (m : M A), sem_fn A m -> needed_good A m.
  Proof.
    exact (sem_fn_good needed_good ng_ret ng_fail ng_bind ng_alloc ng_fresh_oid ng_log_label ng_add_fcache
             ng_add_lcache ng_set_asserted ng_get_store ng_force ng_catch_assert).
  Qed.
End Needed.

Theorem unforced_irrelevant :
  forall (D : nat -> Prop) A (m : M A), sem_fn A m ->
  forall s1 s2 r s1',
    sim D s1 s2 -> m s1 = (r, s1') -> unstarted D s1' ->
    exists s2', m s2 = (r, s2') /\ sim D s1' s2'.
Proof. intros D A m Hm. exact (proj2 (sem_fn_needed D A m Hm)). Qed.

Lemma eval_local1 n ev oc x e body s :
  eval (S n) ev oc (ELocal [(x, e)] body) s =
  eval n ((x, length (cells s)) :: ev) oc body
       (with_cells s (cells s ++ [CWait ((x, length (cells s)) :: ev) oc e])).
Proof. reflexivity. Qed.

Lemma sim_local1 s c1 c2 :
  is_wait c1 = true -> is_wait c2 = true ->
  sim (eq (length (cells s))) (with_cells s (cells s ++ [c1])) (with_cells s (cells s ++ [c2])).
Proof.
  intros H1 H2. constructor; cbn; auto; [|rewrite !app_length; reflexivity].
  intro loc. rewrite !nth_error_snoc. destruct (Nat.ltb loc (length (cells s))); [left; reflexivity|].
  destruct (Nat.eqb_spec loc (length (cells s))) as [->|]; [|left; reflexivity].
  right. split; [reflexivity|]. exists c1, c2. auto.
Qed.

(** [run]'s pipeline, with the final store kept *)
Definition run_state (fuel : nat) (e : expr) : res jval * store :=
  (v <- eval fuel [] no_octx e ;; manifest fuel v) empty_store.

Lemma run_of_state fuel e :
  run fuel e = (match fst (run_state fuel e) with Ok j => OVal j | Err k => OErr k end,
                rev (log (snd (run_state fuel e)))).
Proof. unfold run, run_state. destruct ((v <- eval fuel [] no_octx e ;; manifest fuel v) empty_store) as [[j|k] s]; reflexivity. Qed.

Lemma run_state_local1 n x e body :
  run_state (S n) (ELocal [(x, e)] body) =
  (v <- eval n [(x, 0)] no_octx body ;; manifest (S n) v) (with_cells empty_store [CWait [(x, 0)] no_octx e]).
Proof. unfold run_state, bind. rewrite eval_local1. reflexivity. Qed.

(** non-vacuity: an unused local holding a trace label and an error; a used local next to it *)
Example unused_local_example :
  let p := ELocal [(1%N, ETrace 7 (EError (EStr [])))] (ELocal [(2%N, ETrace 3 (ENum 5))] (EArr [EVar 2%N; EVar 2%N])) in
  (exists c, nth_error (cells (snd (run_state 50 p))) 0 = Some c /\ is_wait c = true) /\
  run 50 p = (OVal (JArr [JNum 5; JNum 5]), [3%N]).
Proof. split; [eexists; split; vm_compute; reflexivity|vm_compute; reflexivity]. Qed.
