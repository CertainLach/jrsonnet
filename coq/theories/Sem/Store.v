(** Store extension and the cell protocol of the reference interpreter [Sem]: every function only
    EXTENDS the store ([ext]): no cell disappears, a cell that is not waiting stays what it is, a waiting
    cell is untouched or has been started, log and caches only grow, object ids are not reused.
    A predicate [Good] closed under what the interpreter is built from holds of all twelve functions
    ([Section Predicate], by [Sem.Closure.rel_step]); instances: "extends the store" here,
    "independent of never-started cells" in [Sem.Needed]. *)
From Coq Require Import List ZArith NArith Lia.
From JrV Require Import Sem.Syntax Sem.Interp Sem.Closure.
Import ListNotations.

Definition is_wait (c : cell) : bool :=
  match c with CWait _ _ _ | CFieldWait _ _ _ _ => true | _ => false end.

(** what may happen to a cell during a complete call *)
Definition cell_le (c c' : cell) : Prop :=
  c' = c \/ (is_wait c = true /\ is_wait c' = false).

(** the protocol Waiting(0) -> Pending(1) -> Done/Failed(2) as a rank *)
Definition cell_rank (c : cell) : nat :=
  match c with
  | CWait _ _ _ | CFieldWait _ _ _ _ => 0
  | CPend => 1
  | CDone _ | CFail _ => 2
  end.

Definition suffix_of {A} (l l' : list A) : Prop := exists pre, l' = pre ++ l.

Record ext (s s' : store) : Prop := mkExt {
  ext_cells : forall loc c, nth_error (cells s) loc = Some c ->
                exists c', nth_error (cells s') loc = Some c' /\ cell_le c c';
  ext_log : suffix_of (log s) (log s');
  ext_fcache : suffix_of (fcache s) (fcache s');
  ext_lcache : suffix_of (lcache s) (lcache s');
  ext_oid : next_oid s <= next_oid s'
}.

Lemma cell_le_refl c : cell_le c c.
Proof. left; reflexivity. Qed.

Lemma cell_le_trans a b c : cell_le a b -> cell_le b c -> cell_le a c.
Proof.
  intros [->|[H1 H2]] [->|[H3 H4]]; unfold cell_le; auto.
Qed.

Lemma cell_le_rank c c' : cell_le c c' -> cell_rank c <= cell_rank c' /\ (cell_rank c = cell_rank c' -> c' = c).
Proof.
  intros [->|[H1 H2]]; [split; auto|].
  destruct c; try discriminate; destruct c'; try discriminate; cbn; split; auto; lia.
Qed.

Lemma suffix_refl {A} (l : list A) : suffix_of l l.
Proof. exists []; reflexivity. Qed.
Lemma suffix_trans {A} (a b c : list A) : suffix_of a b -> suffix_of b c -> suffix_of a c.
Proof. intros [p ->] [q ->]. exists (q ++ p). rewrite app_assoc. reflexivity. Qed.
Lemma suffix_cons {A} (x : A) l : suffix_of l (x :: l).
Proof. exists [x]; reflexivity. Qed.

Lemma ext_refl s : ext s s.
Proof.
  constructor; auto using suffix_refl. intros loc c H. exists c. split; [exact H|apply cell_le_refl].
Qed.

Lemma ext_trans a b c : ext a b -> ext b c -> ext a c.
Proof.
  intros [C1 L1 F1 M1 O1] [C2 L2 F2 M2 O2]. constructor; eauto using suffix_trans; [|lia].
  intros loc x H. destruct (C1 _ _ H) as (y & Hy & Hxy). destruct (C2 _ _ Hy) as (z & Hz & Hyz).
  exists z. split; [exact Hz|]. eapply cell_le_trans; eassumption.
Qed.

Lemma ext_same_cells s s' :
  cells s' = cells s -> suffix_of (log s) (log s') -> suffix_of (fcache s) (fcache s') ->
  suffix_of (lcache s) (lcache s') -> next_oid s <= next_oid s' -> ext s s'.
Proof.
  intros Hc Hl Hf Hm Ho. constructor; auto. rewrite Hc. intros loc c H. exists c.
  split; [exact H|apply cell_le_refl].
Qed.

Lemma ext_length s s' : ext s s' -> length (cells s) <= length (cells s').
Proof.
  intros [C _ _ _ _]. destruct (Nat.le_gt_cases (length (cells s)) (length (cells s'))) as [H|H]; [exact H|].
  exfalso. destruct (nth_error (cells s) (length (cells s'))) as [c|] eqn:E.
  - destruct (C _ _ E) as (c' & Hc' & _).
    assert (Hn : nth_error (cells s') (length (cells s')) = None) by (apply nth_error_None; lia).
    congruence.
  - apply nth_error_None in E. lia.
Qed.

Definition upd (s : store) (loc : nat) (c : cell) : store :=
  mkStore (set_nth (cells s) loc c) (fcache s) (lcache s) (asserted s) (next_oid s) (log s).

Lemma set_cell_upd loc c s : set_cell loc c s = (Ok tt, upd s loc c).
Proof. reflexivity. Qed.

Lemma set_nth_length {A} (l : list A) i x : length (set_nth l i x) = length l.
Proof. revert i; induction l as [|h t IH]; intros [|i]; cbn; auto. Qed.

Lemma nth_set_nth {A} (l : list A) : forall i j x,
  nth_error (set_nth l i x) j =
  if Nat.eqb i j then (match nth_error l j with Some _ => Some x | None => None end)
  else nth_error l j.
Proof.
  induction l as [|h t IH]; intros i j x.
  - cbn. destruct j; destruct (Nat.eqb i _); reflexivity.
  - destruct i as [|i], j as [|j]; cbn [set_nth nth_error Nat.eqb]; try reflexivity. apply IH.
Qed.

Lemma nth_error_snoc {A} (l : list A) (c : A) loc :
  nth_error (l ++ [c]) loc =
  if Nat.ltb loc (length l) then nth_error l loc
  else if Nat.eqb loc (length l) then Some c else None.
Proof.
  destruct (Nat.ltb_spec loc (length l)) as [H|H].
  - apply nth_error_app1; exact H.
  - rewrite nth_error_app2 by exact H. destruct (Nat.eqb_spec loc (length l)) as [->|Hne].
    + rewrite Nat.sub_diag. reflexivity.
    + destruct (loc - length l) as [|[|k]] eqn:E; cbn; try reflexivity. lia.
Qed.

Lemma ext_start s loc c :
  nth_error (cells s) loc = Some c -> is_wait c = true -> ext s (upd s loc CPend).
Proof.
  intros Hc Hw. constructor; cbn; auto using suffix_refl.
  intros x cx Hx. rewrite nth_set_nth. destruct (Nat.eqb_spec loc x) as [->|Hne].
  - rewrite Hx. exists CPend. split; [reflexivity|]. right. split; [congruence|reflexivity].
  - exists cx. split; [exact Hx|apply cell_le_refl].
Qed.

(** the bracket "start, run something that extends the store, finish" is an extension *)
Lemma ext_finish s loc c s2 cf :
  nth_error (cells s) loc = Some c -> is_wait c = true -> is_wait cf = false ->
  ext (upd s loc CPend) s2 -> ext s (upd s2 loc cf).
Proof.
  intros Hc Hw Hf [C L F M O]. cbn in *. constructor; cbn; auto.
  intros x cx Hx. rewrite nth_set_nth. destruct (Nat.eqb_spec loc x) as [->|Hne].
  - destruct (C x CPend) as (c' & Hc' & _).
    { rewrite nth_set_nth, Nat.eqb_refl, Hx. reflexivity. }
    rewrite Hc'. exists cf. split; [reflexivity|]. right. split; [congruence|exact Hf].
  - destruct (C x cx) as (c' & Hc' & Hle).
    { rewrite nth_set_nth. destruct (Nat.eqb_spec loc x); [contradiction|exact Hx]. }
    exists c'. split; assumption.
Qed.

Lemma ext_nonwait_stays s s' loc c :
  ext s s' -> nth_error (cells s) loc = Some c -> is_wait c = false -> nth_error (cells s') loc = Some c.
Proof.
  intros [C _ _ _ _] H Hw. destruct (C _ _ H) as (c' & Hc' & [->|[Hw' _]]); [exact Hc'|congruence].
Qed.

Lemma ext_pend_stays s s' loc :
  ext s s' -> nth_error (cells s) loc = Some CPend -> nth_error (cells s') loc = Some CPend.
Proof. intros He H. exact (ext_nonwait_stays _ _ _ _ He H eq_refl). Qed.

Lemma upd_get s loc c x : nth_error (cells s) loc = Some x -> nth_error (cells (upd s loc c)) loc = Some c.
Proof. intro H. cbn. rewrite nth_set_nth, Nat.eqb_refl, H. reflexivity. Qed.

Definition cell_body (n : nat) (c : cell) : M value :=
  match c with
  | CWait ev oc x => eval n ev oc x
  | CFieldWait oid ls nm up => field_raw n oid ls nm up
  | _ => fail KType
  end.

Lemma force_wait n loc s c :
  nth_error (cells s) loc = Some c -> is_wait c = true ->
  force (S n) loc s =
  match cell_body n c (upd s loc CPend) with
  | (Ok v, s2) => (Ok v, upd s2 loc (CDone v))
  | (Err KFuel, s2) => (Err KFuel, s2)
  | (Err k, s2) => (Err k, upd s2 loc (CFail k))
  end.
Proof.
  intros H Hw. cbn [force]. unfold bind at 1. unfold get_cell. rewrite H.
  destruct c; try discriminate; cbn [cell_body]; unfold bind at 1; rewrite set_cell_upd.
  - destruct (eval n e oc x (upd s loc CPend)) as [[v|k] s2]; [reflexivity|]. destruct k; reflexivity.
  - destruct (field_raw n oid layers name upto (upd s loc CPend)) as [[v|k] s2]; [reflexivity|].
    destruct k; reflexivity.
Qed.

Lemma force_nonwait n loc s c :
  nth_error (cells s) loc = Some c -> is_wait c = false ->
  force (S n) loc s = (match c with CDone v => Ok v | CFail k => Err k | _ => Err KInfRec end, s).
Proof.
  intros H Hw. cbn [force]. unfold bind at 1. unfold get_cell. rewrite H.
  destruct c; try discriminate; reflexivity.
Qed.

Lemma force_nocell n loc s :
  nth_error (cells s) loc = None -> force (S n) loc s = (Err KType, s).
Proof. intros H. cbn [force]. unfold bind at 1. unfold get_cell. rewrite H. reflexivity. Qed.

(** what a force leaves in the cell; the last two disjuncts are the errors that do not come from
    running the body: the cell is already running, or there is no such cell *)
Definition force_post (loc : nat) (s : store) (r : res value) (s' : store) : Prop :=
  match r with
  | Ok v => nth_error (cells s') loc = Some (CDone v)
  | Err KFuel => True
  | Err k => nth_error (cells s') loc = Some (CFail k) \/
             (k = KInfRec /\ nth_error (cells s) loc = Some CPend /\ s' = s) \/
             (k = KType /\ nth_error (cells s) loc = None /\ s' = s)
  end.

Lemma force_wait_post n loc s c r s' :
  nth_error (cells s) loc = Some c -> is_wait c = true ->
  ext (upd s loc CPend) (snd (cell_body n c (upd s loc CPend))) ->
  force (S n) loc s = (r, s') ->
  ext s s' /\ force_post loc s r s' /\
  exists c', nth_error (cells s') loc = Some c' /\ is_wait c' = false.
Proof.
  intros Hc Hw Hb H. rewrite (force_wait _ _ _ _ Hc Hw) in H.
  destruct (cell_body n c (upd s loc CPend)) as [[v|k] s2]; cbn [snd] in Hb.
  - injection H as <- <-. split; [eapply ext_finish; eauto|].
    assert (Hv : nth_error (cells (upd s2 loc (CDone v))) loc = Some (CDone v))
      by (eapply upd_get, ext_pend_stays, upd_get; eassumption).
    eauto.
  - assert (Hp : nth_error (cells s2) loc = Some CPend) by (eapply ext_pend_stays, upd_get; eassumption).
    assert (Hk : nth_error (cells (upd s2 loc (CFail k))) loc = Some (CFail k)) by (eapply upd_get; eassumption).
    assert (Hfin : ext s (upd s2 loc (CFail k))) by (eapply ext_finish; eauto).
    assert (Hfuel : ext s s2) by (eapply ext_trans; [eapply ext_start|]; eassumption).
    destruct k; injection H as <- <-; cbn [force_post]; eauto 6.
Qed.

(** the twelve functions and their sequential compositions (this covers the pipeline of [run]) *)
Inductive sem_fn : forall A : Type, M A -> Prop :=
| sf_eval n ev oc e : sem_fn _ (eval n ev oc e)
| sf_force n loc : sem_fn _ (force n loc)
| sf_comp n ev oc sp : sem_fn _ (comp n ev oc sp)
| sf_getfield n oid ls nm up : sem_fn _ (getfield n oid ls nm up)
| sf_field_raw n oid ls nm up : sem_fn _ (field_raw n oid ls nm up)
| sf_member_env n oid ls i : sem_fn _ (member_env n oid ls i)
| sf_run_asserts n oid ls : sem_fn _ (run_asserts n oid ls)
| sf_assert_layer n oid ls i : sem_fn _ (assert_layer n oid ls i)
| sf_binop_val n o a b : sem_fn _ (binop_val n o a b)
| sf_equals n a b : sem_fn _ (equals n a b)
| sf_compare_val n a b : sem_fn _ (compare_val n a b)
| sf_manifest n v : sem_fn _ (manifest n v)
| sf_ret A (a : A) : sem_fn _ (ret a)
| sf_fail A k : sem_fn A (fail k)
| sf_bind A B (m : M A) (f : A -> M B) :
    sem_fn A m -> (forall a, sem_fn B (f a)) -> sem_fn B (bind m f).

Section Predicate.
  Variable Good : forall A : Type, M A -> Prop.

  Hypothesis G_ret : forall A (a : A), Good A (ret a).
  Hypothesis G_fail : forall A k, Good A (fail k).
  Hypothesis G_bind : forall A B (m : M A) (f : A -> M B),
      Good A m -> (forall a, Good B (f a)) -> Good B (bind m f).
  Hypothesis G_alloc : forall c, Good _ (alloc c).
  Hypothesis G_fresh_oid : Good _ fresh_oid.
  Hypothesis G_log_label : forall l, Good _ (log_label l).
  Hypothesis G_add_fcache : forall oid nm up loc, Good _ (add_fcache oid nm up loc).
  Hypothesis G_add_lcache : forall oid i e, Good _ (add_lcache oid i e).
  Hypothesis G_set_asserted : forall oid st, Good _ (set_asserted oid st).
  (** the interpreter reads the store as a whole only to look at the number of cells, the two
      caches and the assertion states *)
  Hypothesis G_get_store : forall B (f : store -> M B)
      (k : nat -> list (nat * str * nat * nat) -> list (nat * nat * env) -> list (nat * bool) -> M B),
      (forall s, f s = k (length (cells s)) (fcache s) (lcache s) (asserted s)) ->
      (forall a b c d, Good B (k a b c d)) -> Good B (bind get_store f).
  Hypothesis G_force : forall n loc,
      (forall ev oc x, Good _ (eval n ev oc x)) ->
      (forall oid ls nm up, Good _ (field_raw n oid ls nm up)) ->
      Good _ (force (S n) loc).
  Hypothesis G_catch_assert : forall A (m : M A) oid,
      Good _ m ->
      Good _ (fun s0 => match m s0 with
                        | (Ok _, s') => (set_asserted oid None ;;; set_asserted oid (Some true)) s'
                        | (Err k, s') => (set_asserted oid None ;;; @fail unit k) s'
                        end).

  Definition good_at (n : nat) : Prop :=
    (forall ev oc e, Good _ (eval n ev oc e)) /\
    (forall loc, Good _ (force n loc)) /\
    (forall ev oc sp, Good _ (comp n ev oc sp)) /\
    (forall oid ls nm up, Good _ (getfield n oid ls nm up)) /\
    (forall oid ls nm up, Good _ (field_raw n oid ls nm up)) /\
    (forall oid ls i, Good _ (member_env n oid ls i)) /\
    (forall oid ls, Good _ (run_asserts n oid ls)) /\
    (forall oid ls i, Good _ (assert_layer n oid ls i)) /\
    (forall o a b, Good _ (binop_val n o a b)) /\
    (forall a b, Good _ (equals n a b)) /\
    (forall a b, Good _ (compare_val n a b)).

  (** [Good] as a relation that ignores its second argument *)
  Lemma good_all n : good_at n /\ forall v, Good _ (manifest n v).
  Proof.
    induction n as [|n IH].
    - repeat split; intros; apply G_fail.
    - exact (rel_step (fun A m _ => Good A m) G_ret G_fail (fun A B m _ f _ => G_bind A B m f)
               G_alloc G_fresh_oid G_log_label G_add_fcache G_add_lcache G_set_asserted
               (fun B f _ k _ Hf _ => G_get_store B f k Hf) (fun n _ => G_force n)
               (fun A m _ => G_catch_assert A m) n n IH).
  Qed.

  Theorem all_good : forall n, good_at n.
  Proof. intro n. exact (proj1 (good_all n)). Qed.

  Theorem sem_fn_good : forall A (m : M A), sem_fn A m -> Good A m.
  Proof.
    induction 1;
      try (destruct (good_all n) as ((He & Hf & Hc & Hg & Hr & Hm & Ha & Hl & Hb & Hq & Hcmp) & Hj); auto; fail).
    - apply G_ret.
    - apply G_fail.
    - apply G_bind; assumption.
  Qed.
End Predicate.

Definition ext_m {A} (m : M A) : Prop := forall s, ext s (snd (m s)).

Lemma ext_m_ret A (a : A) : ext_m (ret a).
Proof. intro s; apply ext_refl. Qed.
Lemma ext_m_fail A k : ext_m (@fail A k).
Proof. intro s; apply ext_refl. Qed.
Lemma ext_m_bind A B (m : M A) (f : A -> M B) :
  ext_m m -> (forall a, ext_m (f a)) -> ext_m (bind m f).
Proof.
  intros Hm Hf s. unfold bind. specialize (Hm s). destruct (m s) as [[a|k] s1]; cbn in *; [|exact Hm].
  eapply ext_trans; [exact Hm|apply Hf].
Qed.
Lemma ext_m_alloc c : ext_m (alloc c).
Proof.
  intro s. constructor; cbn; auto using suffix_refl.
  intros loc x H. exists x. split; [|apply cell_le_refl].
  rewrite nth_error_app1; [exact H|]. apply nth_error_Some. congruence.
Qed.
Lemma ext_m_fresh_oid : ext_m fresh_oid.
Proof. intro s. apply ext_same_cells; cbn; auto using suffix_refl. Qed.
Lemma ext_m_log_label l : ext_m (log_label l).
Proof. intro s. apply ext_same_cells; cbn; auto using suffix_refl, suffix_cons. Qed.
Lemma ext_m_add_fcache oid nm up loc : ext_m (add_fcache oid nm up loc).
Proof. intro s. apply ext_same_cells; cbn; auto using suffix_refl, suffix_cons. Qed.
Lemma ext_m_add_lcache oid i e : ext_m (add_lcache oid i e).
Proof. intro s. apply ext_same_cells; cbn; auto using suffix_refl, suffix_cons. Qed.
Lemma ext_m_set_asserted oid st : ext_m (set_asserted oid st).
Proof. intro s. apply ext_same_cells; cbn; auto using suffix_refl. Qed.
Lemma ext_m_get_store B (f : store -> M B)
      (k : nat -> list (nat * str * nat * nat) -> list (nat * nat * env) -> list (nat * bool) -> M B) :
  (forall s, f s = k (length (cells s)) (fcache s) (lcache s) (asserted s)) ->
  (forall a b c d, ext_m (k a b c d)) -> ext_m (bind get_store f).
Proof. intros Hf Hk s. unfold bind, get_store. rewrite Hf. apply Hk. Qed.

Lemma ext_m_force n loc :
  (forall ev oc x, ext_m (eval n ev oc x)) ->
  (forall oid ls nm up, ext_m (field_raw n oid ls nm up)) ->
  ext_m (force (S n) loc).
Proof.
  intros He Hr s.
  destruct (nth_error (cells s) loc) as [c|] eqn:E; [|rewrite (force_nocell _ _ _ E); apply ext_refl].
  destruct (is_wait c) eqn:Hw; [|rewrite (force_nonwait _ _ _ _ E Hw); apply ext_refl].
  destruct (force (S n) loc s) as [r s'] eqn:H.
  refine (proj1 (force_wait_post n loc s c r s' E Hw _ H)).
  destruct c; try discriminate; cbn [cell_body]; [apply He|apply Hr].
Qed.

Lemma ext_m_catch_assert A (m : M A) oid : ext_m m -> ext_m (catch_assert oid m).
Proof.
  intros Hm s. unfold catch_assert. specialize (Hm s).
  destruct (m s) as [[a|k] s1]; cbn [snd] in Hm.
  - eapply ext_trans; [exact Hm|]. apply ext_same_cells; cbn; auto using suffix_refl.
  - eapply ext_trans; [exact Hm|]. apply ext_same_cells; cbn; auto using suffix_refl.
Qed.

Theorem sem_fn_ext : forall A (m : M A), sem_fn A m -> ext_m m.
Proof.
  exact (sem_fn_good (@ext_m) ext_m_ret ext_m_fail ext_m_bind ext_m_alloc ext_m_fresh_oid ext_m_log_label
           ext_m_add_fcache ext_m_add_lcache ext_m_set_asserted ext_m_get_store ext_m_force
           ext_m_catch_assert).
Qed.

Lemma cell_body_ext n c : ext_m (cell_body n c).
Proof. destruct c; cbn [cell_body]; apply sem_fn_ext; constructor. Qed.

Definition sem_call (s s' : store) : Prop :=
  exists (A : Type) (m : M A), sem_fn A m /\ s' = snd (m s).

Inductive sem_reach : store -> store -> Prop :=
| sr_refl s : sem_reach s s
| sr_step s s' s'' : sem_call s s' -> sem_reach s' s'' -> sem_reach s s''.

Lemma sem_reach_one A (m : M A) s : sem_fn A m -> sem_reach s (snd (m s)).
Proof. intro H. eapply sr_step; [exists A, m; split; [exact H|reflexivity]|apply sr_refl]. Qed.

Lemma sem_reach_trans a b c : sem_reach a b -> sem_reach b c -> sem_reach a c.
Proof. induction 1; eauto using sr_step. Qed.
