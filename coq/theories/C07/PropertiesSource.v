(** C07, source tie — the property theorems.  [gen_*]: the step functions translated from the Rust
    source of the working tree (Gen/GenImport.v) and the machine built from them (ModelSource.v). *)
From Coq Require Import List NArith.
From JrV Require Import C07.Model C07.Proofs Gen.GenImport C07.ModelSource C07.ProofsSource.
Import ListNotations.
Open Scope N_scope.

(** FileData::new_bytes *)
Theorem C07_model_is_translated_source_new_bytes :
  forall d, gen_new_bytes d = new_bytes d.
Proof. exact gen_new_bytes_eq. Qed.
Print Assumptions C07_model_is_translated_source_new_bytes.

(** FileData::get_string (lazy bytes -> string conversion, `?` on invalid UTF-8) *)
Theorem C07_model_is_translated_source_get_string :
  forall w en, gen_get_string w en = get_string w en.
Proof. exact gen_get_string_eq. Qed.
Print Assumptions C07_model_is_translated_source_get_string.

(** State::import_resolved_str, for ALL states / paths / worlds *)
Theorem C07_model_is_translated_source_importstr :
  forall w c st, gen_import_resolved_str w c st = import_str w c st.
Proof. exact gen_import_resolved_str_eq. Qed.
Print Assumptions C07_model_is_translated_source_importstr.

(** State::import_resolved_bin *)
Theorem C07_model_is_translated_source_importbin :
  forall w c st, gen_import_resolved_bin w c st = import_bin w c st.
Proof. exact gen_import_resolved_bin_eq. Qed.
Print Assumptions C07_model_is_translated_source_importbin.

(** State::import_resolved up to evaluate(): lookup / load / insert, evaluated hit, get_string, parse, flag tested then set *)
Theorem C07_model_is_translated_source_import_begin :
  forall w c st, gen_begin_import w c st = begin_import w c st.
Proof. exact gen_begin_import_eq. Qed.
Print Assumptions C07_model_is_translated_source_import_begin.

(** State::import_resolved after evaluate(), for BOTH outcomes r: flag cleared, value cached on success only *)
Theorem C07_model_is_translated_source_import_finish :
  forall c id r st, gen_finish_import c id r st = (r, finish_import c id r st).
Proof. exact gen_finish_import_eq. Qed.
Print Assumptions C07_model_is_translated_source_import_finish.

(** FileImportResolver::resolve_from: importer directory, then the library paths in order *)
Theorem C07_model_is_translated_source_resolve :
  forall f cwd libs from raw, gen_resolve_from f cwd libs from raw = resolve_impl f cwd libs from raw.
Proof. exact gen_resolve_from_eq. Qed.
Print Assumptions C07_model_is_translated_source_resolve.

(** resolve_from_default *)
Theorem C07_model_is_translated_source_resolve_default :
  forall f cwd libs raw, gen_resolve_from_default f cwd libs raw = resolve_impl f cwd libs SDefault raw.
Proof. exact gen_resolve_from_default_eq. Qed.
Print Assumptions C07_model_is_translated_source_resolve_default.

(** MiscOpts::import_resolver: -J reversed, then JSONNET_PATH *)
Theorem C07_model_is_translated_source_search_list :
  forall A (js env : list A), gen_search_list js env = search_list js env.
Proof. exact gen_search_list_eq. Qed.
Print Assumptions C07_model_is_translated_source_search_list.

(** the machine over the translated steps IS the hand machine, for every history, world and fault schedule *)
Theorem C07_model_is_translated_source_machine :
  forall w fuel h st, gen_run_hist w fuel h st = run_hist w fuel h st.
Proof. exact gen_run_hist_eq. Qed.
Print Assumptions C07_model_is_translated_source_machine.

(** translated resolution = first candidate, in the documented order, that is not `not found` *)
Theorem C07_source_resolve_refines :
  forall f cwd libs from raw, decides f (candidates cwd libs from raw) (gen_resolve_from f cwd libs from raw).
Proof. intros. rewrite gen_resolve_from_eq. apply resolve_refines. Qed.
Print Assumptions C07_source_resolve_refines.

(** right-most -J first *)
Theorem C07_source_cli_path_order :
  forall A (js : list A) j env, gen_search_list (js ++ [j]) env = j :: gen_search_list js env.
Proof. intros. rewrite !gen_search_list_eq. apply search_list_snoc. Qed.
Print Assumptions C07_source_cli_path_order.

(** JSONNET_PATH after every -J *)
Theorem C07_source_cli_path_env_last :
  forall A (env : list A), gen_search_list [] env = env.
Proof. intros. rewrite gen_search_list_eq. apply search_list_nil. Qed.
Print Assumptions C07_source_cli_path_env_last.

(** translated machine: each file read at most once per State *)
Theorem C07_source_load_once :
  forall w fuel h c, (count (is_ok_load c) (s_log (snd (gen_run_hist w fuel h init))) <= 1)%nat.
Proof. intros. rewrite gen_run_hist_eq. apply load_once. Qed.
Print Assumptions C07_source_load_once.

(** translated machine: each body evaluated at most once *)
Theorem C07_source_eval_once :
  forall w fuel h c, (count (is_done c) (s_log (snd (gen_run_hist w fuel h init))) <= 1)%nat /\
    no_start_after_done c (s_log (snd (gen_run_hist w fuel h init))).
Proof. intros. rewrite gen_run_hist_eq. apply eval_once. Qed.
Print Assumptions C07_source_eval_once.

(** translated machine: after ANY history (failing operations, faults) no evaluating flag is left set
    (C07_fault_transparent_partial) *)
Theorem C07_source_state_usable :
  forall w fuel h, let st := snd (gen_run_hist w fuel h init) in quiescent st /\ no_pending st /\ coherent w st.
Proof. intros w fuel h. rewrite gen_run_hist_eq. apply state_usable. Qed.
Print Assumptions C07_source_state_usable.

(** translated machine: importstr / importbin answer as in a fresh State (C07_strbin_transparent) *)
Theorem C07_source_fresh_state :
  forall w fuel h o, t_kind (o_term o) <> KImp ->
    let st := snd (gen_run_hist w fuel h init) in
    (forall k, s_calls st <= k -> fault w k = false) ->
    fst (gen_run_op w fuel o st) = gen_fresh_result w fuel o.
Proof.
  intros w fuel h o HK. cbv zeta. rewrite gen_run_hist_eq, gen_run_op_eq, gen_fresh_result_eq.
  apply (strbin_transparent w fuel h o HK).
Qed.
Print Assumptions C07_source_fresh_state.

(** translated machine: importstr / importbin = content of the file the path resolves to *)
Theorem C07_source_content_exact :
  forall w fuel h o cid, let st := snd (gen_run_hist w fuel h init) in
    (fst (gen_run_op w fuel o st) = VStr cid \/ fst (gen_run_op w fuel o st) = VBytes cid) ->
    exists c, gen_resolve_from (w_fs w) (w_cwd w) (w_libs w) (op_src o) (t_path (o_term o)) = RHit c /\
              fs_file (w_fs w) c = Some cid.
Proof.
  intros w fuel h o cid. cbv zeta. rewrite gen_run_hist_eq, gen_run_op_eq, gen_resolve_from_eq.
  apply (content_exact w fuel h o cid).
Qed.
Print Assumptions C07_source_content_exact.

(** translated machine: import of a file being evaluated = InfiniteRecursionDetected, nothing changes
    (C07_strict_cycle_error) *)
Theorem C07_source_cycle_error :
  forall w f c st en b,
    s_cache st c = Some en -> e_evaluating en = true -> e_evaluated en = None ->
    e_string en = true -> body_of w (e_cid en) = Some b ->
    fst (gen_run w (S f) (KFile c) st) = Err ECycle /\
    (forall c', s_cache (snd (gen_run w (S f) (KFile c) st)) c' = s_cache st c') /\
    s_log (snd (gen_run w (S f) (KFile c) st)) = s_log st /\
    s_calls (snd (gen_run w (S f) (KFile c) st)) = s_calls st.
Proof. intros w f c st en b. rewrite gen_run_eq. apply strict_cycle_error. Qed.
Print Assumptions C07_source_cycle_error.

(** translated second half: flag cleared on success AND error, value cached on success only *)
Theorem C07_source_flag_cleared :
  forall c id r st en, s_cache st c = Some en ->
    fst (gen_finish_import c id r st) = r /\
    exists en', s_cache (snd (gen_finish_import c id r st)) c = Some en' /\ e_evaluating en' = false /\
                e_evaluated en' = match r with Ok v => Some v | Err _ => e_evaluated en end.
Proof.
  intros c id r st en H. rewrite gen_finish_import_eq. cbn [fst snd]. split; [reflexivity|].
  unfold finish_import. rewrite H.
  destruct r as [v|e]; eexists; (split; [apply cache_set_same|]); cbn; auto.
Qed.
Print Assumptions C07_source_flag_cleared.
