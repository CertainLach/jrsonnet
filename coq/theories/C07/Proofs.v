(** C07 — the lemmas behind Properties.v.  [good]: what the cache means with respect to the log;
    [ext]: what a completed task leaves of the state it started in.  Every piece of the evaluator
    takes a good state to a good extension of it ([post]). *)
From Coq Require Import List NArith Bool Arith.
From JrV Require Import C07.Model.
Import ListNotations.
Open Scope N_scope.

Lemma path_eqb_eq : forall a b, path_eqb a b = true <-> a = b.
Proof.
  induction a as [|x a IH]; destruct b as [|y b]; cbn; split; intro H; try congruence.
  - apply andb_true_iff in H. destruct H as [H1 H2]. apply N.eqb_eq in H1. apply IH in H2. congruence.
  - inversion H; subst. rewrite N.eqb_refl. apply IH. reflexivity.
Qed.

Lemma path_eqb_spec : forall a b, reflect (a = b) (path_eqb a b).
Proof. intros. apply iff_reflect. symmetry. apply path_eqb_eq. Qed.

Lemma path_eqb_refl : forall a, path_eqb a a = true.
Proof. intro. apply path_eqb_eq. reflexivity. Qed.

Lemma cache_set_same : forall c en st, s_cache (set_entry c en st) c = Some en.
Proof. intros. cbn. rewrite path_eqb_refl. reflexivity. Qed.

Lemma decides_cons : forall f x cs r,
  decides f cs r ->
  decides f (x :: cs)
    match check_path f x with CHit c => RHit c | CMiss => r | CHard => RHard | CFuel => RFuel end.
Proof.
  intros f x cs r H. pose proof (D_first f [] x cs (Forall_nil _)) as K.
  destruct (check_path f x) eqn:E; try (apply K; discriminate).
  inversion H; subst.
  - apply D_none. constructor; auto.
  - apply (D_first f (x :: pre)); auto.
Qed.

Lemma try_libs_decides : forall f libs raw,
  decides f (map (fun l => l ++ raw) libs) (try_libs f libs raw).
Proof.
  induction libs as [|l libs IH]; intros; cbn.
  - apply D_none. constructor.
  - apply decides_cons, IH.
Qed.

Lemma resolve_refines : forall f cwd libs from raw,
  decides f (candidates cwd libs from raw) (resolve_impl f cwd libs from raw).
Proof.
  intros. destruct from; cbn [resolve_impl candidates].
  1-3: apply decides_cons, try_libs_decides.
  apply (decides_cons f _ [] RNotFound), D_none. constructor.
Qed.

Lemma decides_nil_inv : forall f r, decides f [] r -> r = RNotFound.
Proof.
  intros f r H. inversion H as [|pre x post _ _ E]; subst; auto.
  destruct pre; discriminate E.
Qed.

Lemma decides_cons_inv : forall f x cs r, decides f (x :: cs) r ->
  (check_path f x = CMiss /\ decides f cs r) \/
  (check_path f x <> CMiss /\ r = outcome_of (check_path f x)).
Proof.
  intros f x cs r H. inversion H as [? HF | pre y post HF Hy E]; subst.
  - inversion HF; subst. left. split; auto. apply D_none; auto.
  - destruct pre as [|z pre]; inversion E; subst.
    + right. split; auto.
    + inversion HF; subst. left. split; auto. apply D_first; auto.
Qed.

Lemma search_list_nil : forall A (env : list A), search_list [] env = env.
Proof. reflexivity. Qed.

Lemma search_list_snoc : forall A (js : list A) j env,
  search_list (js ++ [j]) env = j :: search_list js env.
Proof. intros. unfold search_list. rewrite rev_app_distr. reflexivity. Qed.

Definition flag (st : state) (c : path) : bool :=
  match s_cache st c with Some en => e_evaluating en | None => false end.
Definition evald (st : state) (c : path) : option N :=
  match s_cache st c with Some en => e_evaluated en | None => None end.

Definition entry_ok (w : world) (c : path) (en : entry) : Prop :=
  fs_file (w_fs w) c = Some (e_cid en) /\
  (e_string en = true -> utf8 w (e_cid en) = true) /\
  (e_string en = true \/ e_bytes en = true).

Lemma flag_some : forall st c en, s_cache st c = Some en -> flag st c = e_evaluating en.
Proof. intros st c en H. unfold flag. rewrite H. reflexivity. Qed.

Lemma evald_some : forall st c en, s_cache st c = Some en -> evald st c = e_evaluated en.
Proof. intros st c en H. unfold evald. rewrite H. reflexivity. Qed.

Record good (w : world) (st : state) : Prop := mkgood {
  g_coh : forall c en, s_cache st c = Some en -> entry_ok w c en;
  g_load : forall c,
      (s_cache st c = None -> count (is_ok_load c) (s_log st) = O) /\
      (count (is_ok_load c) (s_log st) <= 1)%nat;
  g_eval : forall c,
      (evald st c = None -> count (is_done c) (s_log st) = O) /\
      (count (is_done c) (s_log st) <= 1)%nat /\
      no_start_after_done c (s_log st)
}.

Record ext (st st' : state) : Prop := mkext {
  x_flag : forall c, flag st' c = flag st c;
  x_frozen : forall c, flag st c = true -> evald st' c = evald st c;
  x_mono : forall c en, s_cache st c = Some en ->
      exists en', s_cache st' c = Some en' /\ e_cid en' = e_cid en /\
                  (forall v, e_evaluated en = Some v -> e_evaluated en' = Some v);
  x_pend : forall c k, s_fields st' c k = Some FPending <-> s_fields st c k = Some FPending
}.

Lemma ext_refl : forall st, ext st st.
Proof.
  intro st. constructor; intros; auto; try tauto.
  exists en. auto.
Qed.

Lemma ext_trans : forall a b c, ext a b -> ext b c -> ext a c.
Proof.
  intros a b c [f1 z1 m1 p1] [f2 z2 m2 p2]. constructor; intros.
  - rewrite f2. apply f1.
  - rewrite z2. apply z1; auto. rewrite f1. auto.
  - destruct (m1 _ _ H) as [en1 [H1 [C1 V1]]]. destruct (m2 _ _ H1) as [en2 [H2 [C2 V2]]].
    exists en2. repeat split; auto. congruence.
  - rewrite p2. apply p1.
Qed.

Lemma ext_same : forall st st',
  (forall c, s_cache st' c = s_cache st c) -> (forall c k, s_fields st' c k = s_fields st c k) -> ext st st'.
Proof.
  intros st st' Hc Hf. constructor; intros; unfold flag, evald; try rewrite Hc; try rewrite Hf; auto; try tauto.
  exists en. auto.
Qed.

Lemma ext_add_log : forall ev st, ext st (add_log ev st).
Proof. intros. apply ext_same; auto. Qed.
Lemma ext_bump : forall st, ext st (bump st).
Proof. intros. apply ext_same; auto. Qed.

Lemma ext_entry : forall st st' c en, ext st st' -> s_cache st c = Some en ->
  exists en', s_cache st' c = Some en' /\ e_cid en' = e_cid en /\
    (e_evaluating en = true -> e_evaluated en' = e_evaluated en).
Proof.
  intros st st' c en X HC. destruct (x_mono _ _ X _ _ HC) as [en' [HC' [I _]]].
  pose proof (x_frozen _ _ X c) as Z.
  rewrite (flag_some _ _ _ HC), (evald_some _ _ _ HC), (evald_some _ _ _ HC') in Z. eauto.
Qed.

Lemma ext_set_entry : forall c en st,
  e_evaluating en = flag st c -> e_evaluated en = evald st c ->
  (forall en0, s_cache st c = Some en0 -> e_cid en = e_cid en0) ->
  ext st (set_entry c en st).
Proof.
  intros c en st Hf He Hc. constructor; unfold flag, evald in *; cbn [s_cache s_fields set_entry]; try tauto;
    intros c0; destruct (path_eqb_spec c c0) as [<-|D]; eauto.
  intros en0 H. rewrite H in He. exists en. repeat split; auto. congruence.
Qed.

Lemma ext_set_both : forall c en en' st st',
  ext st st' -> e_cid en' = e_cid en -> e_evaluating en' = e_evaluating en ->
  (e_evaluating en = true -> e_evaluated en' = e_evaluated en) ->
  (forall v, e_evaluated en = Some v -> e_evaluated en' = Some v) ->
  ext (set_entry c en st) (set_entry c en' st').
Proof.
  intros c en en' st st' [f z m p] Hc Hf Hz Hv.
  constructor; unfold flag, evald in *; cbn [s_cache s_fields set_entry]; auto;
    intros c0; destruct (path_eqb_spec c c0) as [<-|D]; auto.
  intros en0 H. inversion H; subst. eauto.
Qed.

Lemma good_same_cache : forall w st st',
  (forall c, s_cache st' c = s_cache st c) -> s_log st' = s_log st -> good w st -> good w st'.
Proof.
  intros w st st' Hc Hl [g1 g2 g3]. constructor; intros.
  - apply g1. rewrite <- Hc. auto.
  - rewrite Hl, Hc. apply g2.
  - unfold evald. rewrite Hl, Hc. apply g3.
Qed.

Lemma good_bump : forall w st, good w st -> good w (bump st).
Proof. intros. apply (good_same_cache w st); auto. Qed.

Definition loggable (st : state) (ev : event) : Prop :=
  match ev with
  | EvLoad c (Ok _) => s_cache st c <> None /\ count (is_ok_load c) (s_log st) = O
  | EvStart c _ => evald st c = None
  | EvDone c _ => evald st c <> None /\ count (is_done c) (s_log st) = O
  | _ => True
  end.

Lemma good_add_log : forall w ev st, good w st -> loggable st ev -> good w (add_log ev st).
Proof.
  intros w ev st [g1 g2 g3] L. constructor; [exact g1 | |]; intro c0.
  - destruct (g2 c0) as [a b]. cbn [add_log s_cache s_log count].
    destruct ev as [| c [cid|e] | | |]; cbn [is_ok_load]; auto.
    destruct (path_eqb_spec c0 c) as [->|D]; auto.
    destruct L as [L1 L2]. rewrite L2. split; [contradiction | auto].
  - destruct (g3 c0) as [a [b d]]. change (evald (add_log ev st) c0) with (evald st c0).
    cbn [add_log s_log count no_start_after_done].
    destruct ev as [| | c id | c id |]; cbn [is_done is_start]; try (repeat split; auto; discriminate).
    + repeat split; auto. intro E. apply path_eqb_eq in E. subst c0. auto.
    + destruct (path_eqb_spec c0 c) as [->|D]; [|repeat split; auto; discriminate].
      destruct L as [L1 L2]. rewrite L2. repeat split; auto. contradiction.
Qed.

(** the value may be stored before the completion is logged *)
Lemma good_set_entry : forall w c en st,
  good w st -> entry_ok w c en -> (e_evaluated en = None -> evald st c = None) -> good w (set_entry c en st).
Proof.
  intros w c en st [g1 g2 g3] Hok Hev.
  constructor; unfold evald in *; cbn [s_cache s_log set_entry]; intros c0;
    destruct (path_eqb_spec c c0) as [<-|D]; auto.
  - intros en0 H. inversion H; subst. exact Hok.
  - destruct (g2 c) as [_ b]. split; [discriminate | exact b].
  - destruct (g3 c) as [a bd]. split; auto.
Qed.

Lemma set_entry_add_log : forall c en ev st,
  set_entry c en (add_log ev st) = add_log ev (set_entry c en st).
Proof. reflexivity. Qed.

Lemma replace_entry_ok : forall w c en en' st,
  good w st -> s_cache st c = Some en ->
  e_cid en' = e_cid en -> e_evaluated en' = e_evaluated en -> e_evaluating en' = e_evaluating en ->
  (e_string en' = true -> utf8 w (e_cid en') = true) -> (e_string en' = true \/ e_bytes en' = true) ->
  good w (set_entry c en' st) /\ ext st (set_entry c en' st).
Proof.
  intros w c en en' st G HC Hcid Hev Hfl Hs Hsb. split.
  - apply good_set_entry; auto.
    + destruct (g_coh _ _ G _ _ HC) as [a _]. rewrite <- Hcid in a. unfold entry_ok. auto.
    + rewrite (evald_some _ _ _ HC). congruence.
  - apply ext_set_entry; rewrite ?(flag_some _ _ _ HC), ?(evald_some _ _ _ HC); auto. congruence.
Qed.

Definition post {A} (w : world) (st : state) (Q : A -> state -> Prop) (p : A * state) : Prop :=
  good w (snd p) /\ ext st (snd p) /\ Q (fst p) (snd p).
Definition any {A} : A -> state -> Prop := fun _ _ => True.

Lemma post_ret : forall A w st (Q : A -> state -> Prop) r, good w st -> Q r st -> post w st Q (r, st).
Proof. intros. split; [|split]; auto using ext_refl. Qed.

Lemma post_step : forall A w st st' (r : A), good w st' -> ext st st' -> post w st any (r, st').
Proof. intros A w st st' r G X. split; [|split]; [exact G | exact X | exact I]. Qed.

Lemma post_done : forall A w st (r : A), good w st -> post w st any (r, st).
Proof. intros. apply post_step; auto using ext_refl. Qed.

Lemma post_bind : forall A B w st (Q : A -> state -> Prop) (R : B -> state -> Prop) p g,
  post w st Q p -> (forall r st1, good w st1 -> Q r st1 -> post w st1 R (g r st1)) ->
  post w st R (let '(r, st1) := p in g r st1).
Proof.
  intros A B w st Q R [r st1] g [G1 [X1 H1]] K. destruct (K r st1 G1 H1) as [G2 [X2 H2]].
  split; [|split]; eauto using ext_trans.
Qed.

Lemma do_resolve_ok : forall w from raw st, good w st ->
  post w st (fun r _ => forall c, r = Ok c -> resolve_impl (w_fs w) (w_cwd w) (w_libs w) from raw = RHit c)
       (do_resolve w from raw st).
Proof.
  intros w from raw st G. split; [|split]; cbn [fst snd do_resolve].
  - apply good_add_log; [apply good_bump; exact G | exact I].
  - exact (ext_trans _ _ _ (ext_bump _) (ext_add_log _ _)).
  - intros c. destruct (fault w (s_calls st)); [discriminate|].
    destruct (resolve_impl (w_fs w) (w_cwd w) (w_libs w) from raw); cbn; congruence.
Qed.

Lemma do_load_spec : forall w c st r st',
  do_load w c st = (r, st') ->
  st' = add_log (EvLoad c r) (bump st) /\ (forall cid, r = Ok cid -> fs_file (w_fs w) c = Some cid).
Proof.
  unfold do_load. intros w c st r st' H. inversion H; subst. split; [reflexivity|].
  intros cid E. destruct (fault w (s_calls st)); [discriminate|].
  destruct (fs_file (w_fs w) c); congruence.
Qed.

Lemma ensure_ok : forall w bin c st, good w st ->
  post w st (fun r st' => forall en, r = Ok en -> s_cache st' c = Some en) (ensure w bin c st).
Proof.
  intros w bin c st G. unfold ensure. destruct (s_cache st c) as [en0|] eqn:EC.
  { apply post_ret; [exact G | congruence]. }
  destruct (do_load w c st) as [r1 st1] eqn:EL. destruct (do_load_spec _ _ _ _ _ EL) as [-> F].
  destruct r1 as [cid|e].
  2:{     split; [|split]; cbn [fst snd].
    - apply good_add_log; [apply good_bump; exact G | exact I].
    - exact (ext_trans _ _ _ (ext_bump _) (ext_add_log _ _)).
    - discriminate. }
  split; [|split]; cbn [fst snd].
  - rewrite set_entry_add_log. apply good_add_log.
    + apply good_set_entry; [apply good_bump; exact G | |].
      * split; [exact (F _ eq_refl) | split; [discriminate | right; reflexivity]].
      * intros _. unfold evald. cbn [s_cache bump]. rewrite EC. reflexivity.
    + split; [rewrite cache_set_same; discriminate | exact (proj1 (g_load _ _ G c) EC)].
  - apply (ext_trans _ (set_entry c (new_bytes cid) st)); [|apply ext_same; auto].
    apply ext_set_entry; unfold flag, evald; rewrite EC; auto. discriminate.
  - intros en E. inversion E; subst. apply cache_set_same.
Qed.

Lemma get_string_spec : forall w en en', get_string w en = Some en' ->
  e_cid en' = e_cid en /\ e_evaluated en' = e_evaluated en /\ e_evaluating en' = e_evaluating en /\
  e_string en' = true /\ ((e_string en = true -> utf8 w (e_cid en) = true) -> utf8 w (e_cid en') = true).
Proof.
  unfold get_string. intros w en en' H. destruct (e_string en) eqn:ES.
  - inversion H; subst. repeat split; auto.
  - destruct (utf8 w (e_cid en)) eqn:EU; [|discriminate]. inversion H; subst. cbn. repeat split; auto.
Qed.

Lemma store_string_ok : forall w c en en' st,
  good w st -> s_cache st c = Some en -> get_string w en = Some en' ->
  good w (set_entry c en' st) /\ ext st (set_entry c en' st).
Proof.
  intros w c en en' st G HC HG. destruct (get_string_spec _ _ _ HG) as [I [V [F [S U]]]].
  destruct (g_coh _ _ G _ _ HC) as [_ [b _]].
  apply (replace_entry_ok w c en); auto.
Qed.

Lemma import_str_ok : forall w c st, good w st ->
  post w st (fun r _ => forall cid, r = Ok cid -> fs_file (w_fs w) c = Some cid) (import_str w c st).
Proof.
  intros w c st G. unfold import_str.
  eapply post_bind; [apply ensure_ok, G|]. intros [en|e] st1 G1 C1.
  2:{ apply post_ret; [exact G1 | discriminate]. }
  specialize (C1 en eq_refl).
  destruct (get_string w en) as [en'|] eqn:EG.
  2:{ apply post_ret; [exact G1 | discriminate]. }
  destruct (store_string_ok _ _ _ _ _ G1 C1 EG) as [G2 X2]. split; [|split]; auto.
  intros cid K. inversion K; subst. destruct (get_string_spec _ _ _ EG) as [-> _].
  exact (proj1 (g_coh _ _ G1 _ _ C1)).
Qed.

Lemma import_bin_ok : forall w c st, good w st ->
  post w st (fun r _ => forall cid, r = Ok cid -> fs_file (w_fs w) c = Some cid) (import_bin w c st).
Proof.
  intros w c st G. unfold import_bin.
  eapply post_bind; [apply ensure_ok, G|]. intros [en|e] st1 G1 C1.
  2:{ apply post_ret; [exact G1 | discriminate]. }
  specialize (C1 en eq_refl). destruct (g_coh _ _ G1 _ _ C1) as [a [b d]].
  destruct (replace_entry_ok w c en (with_bytes en) st1 G1 C1) as [G2 X2]; cbn; auto.
  split; [|split]; auto.
  intros cid K. inversion K; subst. exact a.
Qed.

(** [st2] is the completed step before the flag of [c] was set and the start logged *)
Lemma begin_ok : forall w c st b st1,
  begin_import w c st = (b, st1) -> good w st ->
  match b with
  | BEval bd =>
      exists st2 en1, good w st2 /\ ext st st2 /\ s_cache st2 c = Some en1 /\
        e_evaluating en1 = false /\ e_evaluated en1 = None /\
        e_string en1 = true /\ body_of w (e_cid en1) = Some bd /\
        st1 = add_log (EvStart c (b_id bd)) (set_entry c (with_evaluating true en1) st2)
  | _ => good w st1 /\ ext st st1
  end.
Proof.
  unfold begin_import. intros w c st b st1 H G.
  destruct (ensure_ok w false c st G) as [G0 [X0 C0]].
  destruct (ensure w false c st) as [[en|e] st0]; cbn [fst snd] in *.
  2:{ inversion H; subst. auto. }
  specialize (C0 en eq_refl).
  destruct (e_evaluated en) as [v|] eqn:EV.
  { inversion H; subst. auto. }
  destruct (get_string w en) as [en1|] eqn:EG.
  2:{ inversion H; subst. auto. }
  destruct (store_string_ok _ _ _ _ _ G0 C0 EG) as [G2 X2]. pose proof (ext_trans _ _ _ X0 X2) as X.
  destruct (get_string_spec _ _ _ EG) as [_ [V [_ [S _]]]]. rewrite EV in V.
  destruct (body_of w (e_cid en1)) as [bd|] eqn:EB.
  2:{ inversion H; subst. auto. }
  destruct (e_evaluating en1) eqn:EE; inversion H; subst.
  - auto.
  - exists (set_entry c en1 st0), en1. rewrite cache_set_same. auto 10.
Qed.

Lemma finish_good : forall w c id r st en,
  good w st -> s_cache st c = Some en -> e_evaluated en = None -> good w (finish_import c id r st).
Proof.
  intros w c id r st en G HC HV. unfold finish_import. rewrite HC.
  pose proof (g_coh _ _ G _ _ HC) as K.
  rewrite <- (evald_some _ _ _ HC) in HV.
  destruct r as [v|e].
  - apply good_add_log.
    + apply good_set_entry; [exact G | exact K | discriminate].
    + split.
      * rewrite (evald_some _ _ _ (cache_set_same _ _ _)). discriminate.
      * exact (proj1 (g_eval _ _ G c) HV).
  - apply good_set_entry; auto.
Qed.

(** [st0]: before the flag of [c] was set; [st]: after a completed task ran with it set *)
Lemma finish_ext : forall c id r st0 st en0,
  s_cache st0 c = Some en0 -> e_evaluating en0 = false -> e_evaluated en0 = None ->
  ext (set_entry c (with_evaluating true en0) st0) st ->
  ext st0 (finish_import c id r st).
Proof.
  intros c id r st0 st en0 HC HF HV X.
  destruct (ext_entry _ _ c _ X (cache_set_same _ _ _)) as [en [C [I _]]].
  apply (ext_trans _ (set_entry c en0 (set_entry c (with_evaluating true en0) st0))).
  { apply ext_same; auto. intro c0. cbn. destruct (path_eqb_spec c c0) as [<-|]; auto. }
  unfold finish_import. rewrite C. destruct r as [v|e].
  - apply (ext_trans _ (set_entry c (with_evaluated v (with_evaluating false en)) st)); [|apply ext_add_log].
    apply ext_set_both; auto; cbn; congruence.
  - apply ext_set_both; auto; cbn; congruence.
Qed.

(** [begin_import] sets the flag, [finish_import] clears it on either outcome, around any
    completed task [p] *)
Lemma import_bracket : forall w c st bd st1,
  begin_import w c st = (BEval bd, st1) -> good w st ->
  good w st1 /\
  forall p : res N * state, post w st1 any p ->
    post w st any (let '(r, st3) := p in (r, finish_import c (b_id bd) r st3)).
Proof.
  intros w c st bd st1 H G.
  destruct (begin_ok _ _ _ _ _ H G) as [st2 [en1 [G2 [X2 [C2 [F2 [V2 [_ [_ ->]]]]]]]]].
  split.
  - apply good_add_log.
    + apply good_set_entry; [exact G2 | exact (g_coh _ _ G2 _ _ C2) |].
      intros _. rewrite (evald_some _ _ _ C2). exact V2.
    + unfold loggable. rewrite (evald_some _ _ _ (cache_set_same _ _ _)). exact V2.
  - intros [r st3] [G3 [X3 _]]. cbn [snd] in *.
    pose proof (ext_trans _ _ _ (ext_add_log _ _) X3) as X.
    destruct (ext_entry _ _ c _ X (cache_set_same _ _ _)) as [en3 [C3 [_ V3]]].
    apply post_step.
    + apply (finish_good w c _ r st3 en3); auto. rewrite V3; auto.
    + apply (ext_trans _ _ _ X2), (finish_ext c _ r st2 st3 en1); auto.
Qed.

Lemma field_bracket : forall w c j id st,
  good w st -> s_fields st c j = None ->
  let st1 := add_log (EvLazy c id j) (set_field c j FPending st) in
  good w st1 /\
  forall p : res N * state, post w st1 any p ->
    post w st any (let '(r, st3) := p in (r, set_field c j (FDone r) st3)).
Proof.
  intros w c j id st G HN st1. split.
  { apply good_add_log; [|exact I]. apply (good_same_cache w st); auto. }
  intros [r st3] [G3 [[f z m p] _]]. apply post_step.
  { apply (good_same_cache w st3); auto. }
  constructor; [exact f | exact z | exact m |].
  intros c0 k. specialize (p c0 k). cbn [snd st1 s_fields set_field add_log] in *.
  destruct (path_eqb c c0 && Nat.eqb j k) eqn:E; [|exact p].
  apply andb_true_iff in E. destruct E as [E1 E2]. apply path_eqb_eq in E1. apply Nat.eqb_eq in E2.
  subst c0 k. rewrite HN. split; discriminate.
Qed.

Lemma run_ok : forall w fuel k st, good w st -> post w st any (run w fuel k st).
Proof.
  intros w fuel. induction fuel as [|f IH]; intros k st G.
  { apply post_done, G. }
  destruct k as [c | c j | from t | from ts acc]; cbn [run].
  - destruct (begin_import w c st) as [b st1] eqn:EB.
    destruct b as [v | e | bd].
    1,2: apply post_step; apply (begin_ok _ _ _ _ _ EB G).
    destruct (import_bracket _ _ _ _ _ EB G) as [G1 K]. apply K, IH, G1.
  - destruct (s_fields st c j) as [[|r0]|] eqn:EF; try apply post_done, G.
    destruct (lazy_of w st c j) as [[id ts]|]; [|apply post_done, G].
    destruct (field_bracket w c j id st G EF) as [G1 K]. apply K, IH, G1.
  - eapply post_bind; [apply do_resolve_ok, G|]. intros [c|e] st1 G1 _; [|apply post_done, G1].
    destruct (t_kind t).
    + eapply post_bind; [apply IH, G1|]. intros [v|e] st2 G2 _; [|apply post_done, G2].
      destruct (t_sel t); [apply post_done, G2 | apply IH, G2].
    + eapply post_bind; [apply import_str_ok, G1|]. intros [cid|e] st2 G2 _; apply post_done, G2.
    + eapply post_bind; [apply import_bin_ok, G1|]. intros [cid|e] st2 G2 _; apply post_done, G2.
  - destruct ts as [|t rest]; [apply post_done, G|].
    eapply post_bind; [apply IH, G|]. intros [n|e] st1 G1 _; [apply IH, G1 | apply post_done, G1].
Qed.

Lemma run_op_ok : forall w fuel o st, good w st ->
  post w st
    (fun v _ => forall cid, v = VStr cid \/ v = VBytes cid ->
       exists c, resolve_impl (w_fs w) (w_cwd w) (w_libs w) (op_src o) (t_path (o_term o)) = RHit c /\
                 fs_file (w_fs w) c = Some cid)
    (run_op w fuel o st).
Proof.
  intros w fuel o st G. unfold run_op. destruct (t_kind (o_term o)).
  - eapply post_bind; [apply run_ok, G|]. intros r st1 G1 _. apply post_ret; [exact G1|].
    intros cid [K|K]; destruct r; discriminate.
  - eapply post_bind; [apply do_resolve_ok, G|]. intros [c|e] st1 G1 Hit.
    2:{ apply post_ret; [exact G1|]. intros cid [K|K]; discriminate. }
    eapply post_bind; [apply import_str_ok, G1|]. intros r2 st2 G2 F. apply post_ret; [exact G2|].
    intros cid [K|K]; destruct r2; inversion K; subst. eauto.
  - eapply post_bind; [apply do_resolve_ok, G|]. intros [c|e] st1 G1 Hit.
    2:{ apply post_ret; [exact G1|]. intros cid [K|K]; discriminate. }
    eapply post_bind; [apply import_bin_ok, G1|]. intros r2 st2 G2 F. apply post_ret; [exact G2|].
    intros cid [K|K]; destruct r2; inversion K; subst. eauto.
Qed.

Lemma run_hist_ok : forall w fuel h st, good w st -> post w st any (run_hist w fuel h st).
Proof.
  intros w fuel h. induction h as [|o rest IH]; intros st G; cbn [run_hist].
  - apply post_done, G.
  - eapply post_bind; [apply run_op_ok, G|]. intros v st1 G1 _.
    eapply post_bind; [apply IH, G1|]. intros vs st2 G2 _. apply post_done, G2.
Qed.

Lemma init_good : forall w, good w init.
Proof.
  intro w. constructor; intros; cbn in *; try discriminate; auto.
Qed.

Lemma reach_good : forall w fuel h, post w init any (run_hist w fuel h init).
Proof. intros. apply run_hist_ok, init_good. Qed.

Lemma load_once : forall w fuel h c,
  (count (is_ok_load c) (s_log (snd (run_hist w fuel h init))) <= 1)%nat.
Proof.
  intros. destruct (reach_good w fuel h) as [G _]. apply (g_load _ _ G c).
Qed.

Lemma eval_once : forall w fuel h c,
  (count (is_done c) (s_log (snd (run_hist w fuel h init))) <= 1)%nat /\
  no_start_after_done c (s_log (snd (run_hist w fuel h init))).
Proof.
  intros. destruct (reach_good w fuel h) as [G _]. apply (g_eval _ _ G c).
Qed.

Lemma state_usable : forall w fuel h,
  let st := snd (run_hist w fuel h init) in
  quiescent st /\ no_pending st /\ coherent w st.
Proof.
  intros. destruct (reach_good w fuel h) as [G [X _]]. fold st in G, X. split; [|split].
  - intros c en HC. rewrite <- (flag_some _ _ _ HC). exact (x_flag _ _ X c).
  - intros c k HP. apply (x_pend _ _ X) in HP. discriminate.
  - exact (g_coh _ _ G).  (* [coherent] is [entry_ok] of every entry *)
Qed.

Lemma content_exact : forall w fuel h o cid,
  let st := snd (run_hist w fuel h init) in
  (fst (run_op w fuel o st) = VStr cid \/ fst (run_op w fuel o st) = VBytes cid) ->
  exists c, resolve_impl (w_fs w) (w_cwd w) (w_libs w) (op_src o) (t_path (o_term o)) = RHit c /\
            fs_file (w_fs w) c = Some cid.
Proof.
  intros w fuel h o cid st. destruct (reach_good w fuel h) as [G _].
  destruct (run_op_ok w fuel o st G) as [_ [_ F]]. exact (F cid).
Qed.

Definition str_answer (w : world) (c : path) : res N :=
  match fs_file (w_fs w) c with
  | Some cid => if utf8 w cid then Ok cid else Err EUtf8
  | None => Err EIo
  end.
Definition bin_answer (w : world) (c : path) : res N :=
  match fs_file (w_fs w) c with Some cid => Ok cid | None => Err EIo end.

Lemma import_str_closed : forall w c st,
  (forall en, s_cache st c = Some en -> entry_ok w c en) -> fault w (s_calls st) = false ->
  fst (import_str w c st) = str_answer w c.
Proof.
  intros w c st HC HF. unfold import_str, ensure, str_answer.
  destruct (s_cache st c) as [en|] eqn:E.
  - destruct (HC en eq_refl) as [a [b d]]. rewrite a. unfold get_string.
    destruct (e_string en) eqn:ES.
    + rewrite (b eq_refl). reflexivity.
    + destruct (utf8 w (e_cid en)); reflexivity.
  - unfold do_load. rewrite HF. destruct (fs_file (w_fs w) c) as [cid|]; [|reflexivity].
    unfold get_string. cbn [e_string new_bytes e_cid]. destruct (utf8 w cid) eqn:EU; reflexivity.
Qed.

Lemma import_bin_closed : forall w c st,
  (forall en, s_cache st c = Some en -> entry_ok w c en) -> fault w (s_calls st) = false ->
  fst (import_bin w c st) = bin_answer w c.
Proof.
  intros w c st HC HF. unfold import_bin, ensure, bin_answer.
  destruct (s_cache st c) as [en|] eqn:E.
  - destruct (HC en eq_refl) as [a _]. rewrite a. reflexivity.
  - unfold do_load. rewrite HF. destruct (fs_file (w_fs w) c) as [cid|]; reflexivity.
Qed.

Lemma strbin_answer : forall w fuel o st,
  t_kind (o_term o) <> KImp ->
  (forall c en, s_cache st c = Some en -> entry_ok w c en) ->
  (forall k, s_calls st <= k -> fault w k = false) ->
  fst (run_op w fuel o st) =
  match res_of_rres (resolve_impl (w_fs w) (w_cwd w) (w_libs w) (op_src o) (t_path (o_term o))) with
  | Err e => VErr e
  | Ok c => match t_kind (o_term o) with
            | KStr => match str_answer w c with Ok cid => VStr cid | Err e => VErr e end
            | _ => match bin_answer w c with Ok cid => VBytes cid | Err e => VErr e end
            end
  end.
Proof.
  intros w fuel o st HK HC HF. unfold run_op, do_resolve.
  rewrite (HF _ (N.le_refl _)).
  set (st1 := add_log _ (bump st)).
  assert (fault w (s_calls st1) = false) as HF1 by apply HF, N.le_add_r.
  destruct (res_of_rres _) as [c|e].
  2:{ destruct (t_kind (o_term o)); [congruence | reflexivity | reflexivity]. }
  destruct (t_kind (o_term o)); [congruence | |].
  - rewrite <- (import_str_closed w c st1 (HC c) HF1). destruct (import_str w c st1). reflexivity.
  - rewrite <- (import_bin_closed w c st1 (HC c) HF1). destruct (import_bin w c st1). reflexivity.
Qed.

Lemma strbin_transparent : forall w fuel h o,
  t_kind (o_term o) <> KImp ->
  let st := snd (run_hist w fuel h init) in
  (forall k, s_calls st <= k -> fault w k = false) ->
  fst (run_op w fuel o st) = fresh_result w fuel o.
Proof.
  intros w fuel h o HK st HF. destruct (reach_good w fuel h) as [G _]. fold st in G.
  unfold fresh_result.
  rewrite (strbin_answer w fuel o st HK (g_coh _ _ G) HF).
  rewrite (strbin_answer (no_faults w) fuel o init HK).
  - reflexivity.
  - discriminate.
  - reflexivity.
Qed.

Lemma strict_cycle_error : forall w f c st en b,
  s_cache st c = Some en -> e_evaluating en = true -> e_evaluated en = None ->
  e_string en = true -> body_of w (e_cid en) = Some b ->
  fst (run w (S f) (KFile c) st) = Err ECycle /\
  (forall c', s_cache (snd (run w (S f) (KFile c) st)) c' = s_cache st c') /\
  s_log (snd (run w (S f) (KFile c) st)) = s_log st /\
  s_calls (snd (run w (S f) (KFile c) st)) = s_calls st.
Proof.
  intros w f c st en b HC HF HE HS HB. cbn [run]. unfold begin_import, ensure. rewrite HC, HE.
  unfold get_string. rewrite HS, HB, HF. cbn. repeat split.
  intro c'. destruct (path_eqb_spec c c') as [<-|]; auto.
Qed.

Definition mk_op (k : kind) (p : list comp) (s : sel) : op :=
  {| o_src := SDefault; o_term := T k p s |}.
Definition code (id : N) (strict : list term) (lz : list (list term)) : blob :=
  {| bl_utf8 := true; bl_chars := 10; bl_bytes := 11;
     bl_body := Some {| b_id := id; b_strict := strict; b_lazy := lz |} |}.

(** names: 0 = main, 1 = a.jsonnet, 2 = b.jsonnet, 3 = c.jsonnet, 4 = u.bin, 5 = lib, 6 = t.txt,
    7 = d.jsonnet, 8 = a symlink to ../lib/t.txt;
    a.jsonnet = { lz0: (import "b.jsonnet").v }, resolver call 2 (resolve b.jsonnet) fails once *)
Definition wA : world :=
  {| w_fs := [([0], NDir); ([0; 1], NFile 0); ([0; 2], NFile 1)];
     w_cwd := [0]; w_libs := [];
     w_blobs := [(0, code 1 [] [[T KImp [CN 2] SV]]); (1, code 2 [] [])];
     w_faults := [2] |}.
Definition opA : op := mk_op KImp [CN 1] (SLz 0).

Lemma wA_fault_free_from : forall n k, 2 < n -> n <= k -> fault wA k = false.
Proof.
  intros n k Hn Hk. unfold fault. cbn [w_faults wA existsb].
  destruct (N.eqb_spec k 2) as [->|]; [|reflexivity].
  exfalso. apply (N.lt_irrefl 2), (N.lt_le_trans _ n); assumption.
Qed.

Lemma wA_faults_cleared : forall k,
  s_calls (snd (run_hist wA 50 [opA] init)) <= k -> fault wA k = false.
Proof. intro k. apply wA_fault_free_from. vm_compute. reflexivity. Qed.

(** u.bin is not UTF-8: since c43636f importstr twice (then importbin, then import) reads it once *)
Definition wB : world :=
  {| w_fs := [([0], NDir); ([0; 4], NFile 0)];
     w_cwd := [0]; w_libs := [];
     w_blobs := [(0, {| bl_utf8 := false; bl_chars := 0; bl_bytes := 2; bl_body := None |})];
     w_faults := [] |}.

Example nonutf8_is_read_once :
  let r := run_hist wB 50 [mk_op KStr [CN 4] SV; mk_op KStr [CN 4] SV; mk_op KBin [CN 4] SV;
                           mk_op KImp [CN 4] SV] init in
  fst r = [VErr EUtf8; VErr EUtf8; VBytes 0; VErr EUtf8] /\
  count (is_ok_load [0; 4]) (s_log (snd r)) = 1%nat.
Proof. vm_compute. repeat split. Qed.

(** a -> b -> c -> a strictly; d is unrelated *)
Definition wC : world :=
  {| w_fs := [([0], NDir); ([5], NDir); ([0; 1], NFile 0); ([0; 2], NFile 1); ([0; 3], NFile 2);
              ([0; 7], NFile 3); ([5; 6], NFile 4); ([0; 8], NLink [CUp; CN 5; CN 6])];
     w_cwd := [0]; w_libs := [[CN 5]];
     w_blobs := [(0, code 1 [T KImp [CN 2] SV] []); (1, code 2 [T KImp [CDot; CN 3] SV] []);
                 (2, code 3 [T KImp [CUp; CN 5; CUp; CN 0; CN 1] SV] []);
                 (3, code 4 [T KStr [CN 6] SV; T KBin [CN 8] SV] []);
                 (4, {| bl_utf8 := true; bl_chars := 3; bl_bytes := 5; bl_body := None |})];
     w_faults := [] |}.

Example cycle3_is_an_error_and_the_state_stays_usable :
  fst (run_hist wC 100 [mk_op KImp [CN 1] SV; mk_op KImp [CN 7] SV; mk_op KImp [CN 3] SV;
                        mk_op KStr [CN 6] SV; mk_op KBin [CN 8] SV] init)
  = [VErr ECycle; VNum 12; VErr ECycle; VStr 4; VBytes 4].
Proof. vm_compute. reflexivity. Qed.

Example nonvac_load_once :
  count (is_ok_load [5; 6]) (s_log (snd (run_hist wC 100
     [mk_op KImp [CN 7] SV; mk_op KStr [CN 6] SV; mk_op KBin [CN 8] SV] init))) = 1%nat.
Proof. vm_compute. repeat split. Qed.

Example nonvac_eval_once :
  count (is_done [0; 7]) (s_log (snd (run_hist wC 100
     [mk_op KImp [CN 7] SV; mk_op KImp [CDot; CN 7] SV] init))) = 1%nat /\
  count (is_start [0; 7]) (s_log (snd (run_hist wC 100
     [mk_op KImp [CN 7] SV; mk_op KImp [CDot; CN 7] SV] init))) = 1%nat.
Proof. vm_compute. repeat split. Qed.

Example nonvac_strbin_transparent :
  let st := snd (run_hist wA 50 [opA] init) in
  (forall k, s_calls st <= k -> fault wA k = false) /\
  fst (run_op wA 50 (mk_op KStr [CN 2] SV) st) = VStr 1.
Proof. split; [exact wA_faults_cleared | vm_compute; reflexivity]. Qed.

Example nonvac_strict_cycle :
  exists st1 bd, begin_import wC [0; 1] init = (BEval bd, st1) /\
                 fst (run wC 1 (KFile [0; 1]) st1) = Err ECycle.
Proof. eexists. eexists. split; [vm_compute; reflexivity | vm_compute; reflexivity]. Qed.

Example nonvac_resolve :
  resolve_impl (w_fs wC) [0] [[CN 5]] SDefault [CN 6] = RHit [5; 6] /\
  resolve_impl (w_fs wC) [0] [[CN 5]] SNoJ [CN 6] = RNotFound /\
  resolve_impl (w_fs wC) [0] [[CN 5]] (SFile [5; 6]) [CUp; CN 0; CN 8] = RHit [5; 6] /\
  resolve_impl (w_fs wC) [0] [[CN 5]] SDefault [CUp; CN 5] = RHard /\
  resolve_impl (w_fs wC) [0] [[CN 5]] SDefault [CN 1; CN 6] = RHard.
Proof. vm_compute. repeat split. Qed.
