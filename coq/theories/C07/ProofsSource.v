(** C07, source tie: the step functions of Gen/GenImport.v are, for ALL cache states, paths, worlds
    and evaluation outcomes, the hand-written steps of Model.v; hence [gen_run_hist] IS [run_hist].
    The translation writes every assignment through the `&mut FileData` into the cache at once, the
    hand model once per step: [set_entry c a (set_entry c b st)] against [set_entry c a st].  States
    hold the cache as a function, so these equalities use functional extensionality (standard
    library axiom, allow-listed). *)
From Coq Require Import List NArith FunctionalExtensionality.
From JrV Require Import C07.Model C07.Proofs Gen.GenImport C07.ModelSource.
Import ListNotations.
Open Scope N_scope.

Lemma state_ext : forall a b,
  (forall c, s_cache a c = s_cache b c) -> s_fields a = s_fields b -> s_log a = s_log b ->
  s_calls a = s_calls b -> a = b.
Proof.
  intros [ca fa la na] [cb fb lb nb]; cbn; intros H E1 E2 E3. subst.
  f_equal. apply functional_extensionality. exact H.
Qed.

Lemma set_entry_twice : forall c a b st, set_entry c a (set_entry c b st) = set_entry c a st.
Proof.
  intros. apply state_ext; cbn; auto. intros c'. destruct (path_eqb c c'); reflexivity.
Qed.

Lemma set_entry_same : forall c en st, s_cache st c = Some en -> set_entry c en st = st.
Proof.
  intros c en st H. apply state_ext; cbn; auto. intros c'.
  destruct (path_eqb c c') eqn:E; auto. apply path_eqb_eq in E. subst. auto.
Qed.

Lemma with_bytes_id : forall en, e_bytes en = true -> with_bytes en = en.
Proof. intros [a b c d e]; cbn; intros; subst; reflexivity. Qed.

Lemma gen_new_bytes_eq : forall d, gen_new_bytes d = new_bytes d.
Proof. reflexivity. Qed.

Lemma gen_get_string_eq : forall w en, gen_get_string w en = get_string w en.
Proof.
  intros. unfold gen_get_string, get_string. cbv beta zeta.
  destruct (e_string en); cbn [negb]; [reflexivity|].
  destruct (utf8 w (e_cid en)); reflexivity.
Qed.

Lemma gen_import_resolved_str_eq : forall w c st, gen_import_resolved_str w c st = import_str w c st.
Proof.
  intros. unfold gen_import_resolved_str, import_str, ensure. cbv beta zeta.
  destruct (s_cache st c) as [en|].
  - rewrite gen_get_string_eq. destruct (get_string w en); reflexivity.
  - destruct (do_load w c st) as [[cid|e] st1]; [|reflexivity].
    change (gen_new_bytes cid) with (new_bytes cid).
    rewrite gen_get_string_eq. destruct (get_string w (new_bytes cid)); reflexivity.
Qed.

Lemma gen_import_resolved_bin_eq : forall w c st, gen_import_resolved_bin w c st = import_bin w c st.
Proof.
  intros. unfold gen_import_resolved_bin, import_bin, ensure. cbv beta zeta.
  destruct (s_cache st c) as [en|] eqn:C.
  - destruct (e_bytes en) eqn:B; cbn [negb].
    + rewrite (with_bytes_id en B). rewrite (set_entry_same c en st C). reflexivity.
    + reflexivity.
  - destruct (do_load w c st) as [[cid|e] st1]; [|reflexivity].
    change (gen_new_bytes cid) with (new_bytes cid). cbn [e_bytes new_bytes e_cid].
    change (with_bytes (new_bytes cid)) with (new_bytes cid).
    rewrite set_entry_twice. reflexivity.
Qed.

(** [gen_begin_import] after its cache lookup, let-expanded; apart, so that it applies to the cached
    entry and to the one just loaded *)
Lemma gen_begin_tail : forall w c en st,
  match e_evaluated en with
  | Some val => (BDone val, st)
  | None =>
    match gen_get_string w en with
    | None => (BFail EUtf8, st)
    | Some en0 =>
      let st0 := set_entry c en0 st in
      match body_of w (e_cid en0) with
      | None => (BFail ESyntax, st0)
      | Some b =>
        if e_evaluating en0 then (BFail ECycle, st0)
        else let en1 := with_evaluating true en0 in
             let st1 := set_entry c en1 st0 in (BEval b, add_log (EvStart c (b_id b)) st1)
      end
    end
  end
  =
  match e_evaluated en with
  | Some v => (BDone v, st)
  | None =>
    match get_string w en with
    | None => (BFail EUtf8, st)
    | Some en1 =>
      let st2 := set_entry c en1 st in
      match body_of w (e_cid en1) with
      | None => (BFail ESyntax, st2)
      | Some b =>
        if e_evaluating en1 then (BFail ECycle, st2)
        else (BEval b, add_log (EvStart c (b_id b)) (set_entry c (with_evaluating true en1) st2))
      end
    end
  end.
Proof.
  intros. rewrite gen_get_string_eq. reflexivity.
Qed.

Lemma gen_begin_import_eq : forall w c st, gen_begin_import w c st = begin_import w c st.
Proof.
  intros. unfold gen_begin_import, begin_import, ensure. cbv beta zeta.
  destruct (s_cache st c) as [en|].
  - apply gen_begin_tail.
  - destruct (do_load w c st) as [[cid|e] st1]; [|reflexivity].
    change (gen_new_bytes cid) with (new_bytes cid).
    apply (gen_begin_tail w c (new_bytes cid) (set_entry c (new_bytes cid) st1)).
Qed.

Lemma gen_finish_import_eq : forall c id r st,
  gen_finish_import c id r st = (r, finish_import c id r st).
Proof.
  intros. unfold gen_finish_import, finish_import. cbv beta zeta.
  destruct (s_cache st c) as [en|]; [|reflexivity].
  destruct r as [v|e]; [|reflexivity].
  f_equal. apply state_ext; cbn; auto.
  intros c'. destruct (path_eqb c c'); reflexivity.
Qed.

Lemma gen_resolve_libs_eq : forall f libs raw,
  gen_resolve_libs f libs raw = match try_libs f libs raw with RNotFound => None | r => Some r end.
Proof.
  induction libs as [|l r IH]; intros; cbn [gen_resolve_libs try_libs]; [reflexivity|].
  destruct (check_path f (l ++ raw)); auto.
Qed.

Lemma gen_resolve_from_eq : forall f cwd libs from raw,
  gen_resolve_from f cwd libs from raw = resolve_impl f cwd libs from raw.
Proof.
  intros. unfold gen_resolve_from, resolve_impl. cbv beta zeta.
  destruct from; try reflexivity;
    (destruct (check_path f _); try reflexivity;
     rewrite gen_resolve_libs_eq; destruct (try_libs f libs raw); reflexivity).
Qed.

Lemma gen_resolve_from_default_eq : forall f cwd libs raw,
  gen_resolve_from_default f cwd libs raw = resolve_impl f cwd libs SDefault raw.
Proof. intros. apply gen_resolve_from_eq. Qed.

Lemma gen_search_list_eq : forall A (js env : list A), gen_search_list js env = search_list js env.
Proof. reflexivity. Qed.

Lemma gen_do_resolve_eq : forall w from raw st, gen_do_resolve w from raw st = do_resolve w from raw st.
Proof. intros. unfold gen_do_resolve, do_resolve. rewrite gen_resolve_from_eq. reflexivity. Qed.

Lemma gen_run_eq : forall w fuel k st, gen_run w fuel k st = run w fuel k st.
Proof.
  induction fuel as [|f IH]; intros; [reflexivity|].
  destruct k as [c|c j|from t|from ts acc]; cbn [gen_run run].
  - rewrite gen_begin_import_eq. destruct (begin_import w c st) as [b st1].
    destruct b as [v|e|bd]; try reflexivity.
    rewrite IH. destruct (run w f (KSum (SFile c) (b_strict bd) (b_id bd)) st1) as [r st2].
    apply gen_finish_import_eq.
  - destruct (s_fields st c j) as [[|r]|]; try reflexivity.
    destruct (lazy_of w st c j) as [[id ts]|]; try reflexivity.
    rewrite IH. reflexivity.
  - rewrite gen_do_resolve_eq. destruct (do_resolve w from (t_path t) st) as [[c|e] st1]; try reflexivity.
    destruct (t_kind t).
    + rewrite IH. destruct (run w f (KFile c) st1) as [[v|e] st2]; try reflexivity.
      destruct (t_sel t); [reflexivity|apply IH].
    + rewrite gen_import_resolved_str_eq. reflexivity.
    + rewrite gen_import_resolved_bin_eq. reflexivity.
  - destruct ts as [|t rest]; [reflexivity|].
    rewrite IH. destruct (run w f (KTerm from t) st) as [[n|e] st1]; [apply IH|reflexivity].
Qed.

Lemma gen_run_op_eq : forall w fuel o st, gen_run_op w fuel o st = run_op w fuel o st.
Proof.
  intros. unfold gen_run_op, run_op. destruct (t_kind (o_term o)).
  - rewrite gen_run_eq. reflexivity.
  - rewrite gen_do_resolve_eq. destruct (do_resolve _ _ _ _) as [[c|e] st1]; [|reflexivity].
    rewrite gen_import_resolved_str_eq. reflexivity.
  - rewrite gen_do_resolve_eq. destruct (do_resolve _ _ _ _) as [[c|e] st1]; [|reflexivity].
    rewrite gen_import_resolved_bin_eq. reflexivity.
Qed.

Lemma gen_run_hist_eq : forall w fuel h st, gen_run_hist w fuel h st = run_hist w fuel h st.
Proof.
  induction h as [|o rest IH]; intros; [reflexivity|]. cbn [gen_run_hist run_hist].
  rewrite gen_run_op_eq. destruct (run_op w fuel o st) as [v st1]. rewrite IH. reflexivity.
Qed.

Lemma gen_fresh_result_eq : forall w fuel o, gen_fresh_result w fuel o = fresh_result w fuel o.
Proof. intros. unfold gen_fresh_result, fresh_result. rewrite gen_run_op_eq. reflexivity. Qed.

Example src_nonvac_cycle :
  fst (gen_run_hist wC 100 [mk_op KImp [CN 1] SV; mk_op KImp [CN 7] SV; mk_op KImp [CN 3] SV;
                            mk_op KStr [CN 6] SV; mk_op KBin [CN 8] SV] init)
  = [VErr ECycle; VNum 12; VErr ECycle; VStr 4; VBytes 4].
Proof. vm_compute. reflexivity. Qed.

Example src_nonvac_nonutf8 :
  let r := gen_run_hist wB 50 [mk_op KStr [CN 4] SV; mk_op KStr [CN 4] SV; mk_op KBin [CN 4] SV;
                               mk_op KImp [CN 4] SV] init in
  fst r = [VErr EUtf8; VErr EUtf8; VBytes 0; VErr EUtf8] /\
  count (is_ok_load [0; 4]) (s_log (snd r)) = 1%nat.
Proof. vm_compute. repeat split. Qed.

Example src_nonvac_resolve :
  gen_resolve_from (w_fs wC) [0] [[CN 5]] SDefault [CN 6] = RHit [5; 6] /\
  gen_resolve_from (w_fs wC) [0] [[CN 5]] SNoJ [CN 6] = RNotFound /\
  gen_resolve_from (w_fs wC) [0] [[CN 5]] (SFile [5; 6]) [CUp; CN 0; CN 8] = RHit [5; 6] /\
  gen_resolve_from (w_fs wC) [0] [[CN 5]] SDefault [CUp; CN 5] = RHard /\
  gen_resolve_from (w_fs wC) [0] [[CN 0]; [CN 5]] (SDir [5]) [CN 8] = RHit [5; 6].
Proof. vm_compute. repeat split. Qed.

(** a failing evaluation (the nested import of a missing file) leaves the flag cleared: the retry
    answers the same error, not InfiniteRecursionDetected *)
Definition wE : world :=
  {| w_fs := [([0], NDir); ([0; 1], NFile 0)];
     w_cwd := [0]; w_libs := [];
     w_blobs := [(0, code 1 [T KImp [CN 9] SV] [])];
     w_faults := [] |}.

Example src_nonvac_flag_cleared_on_error :
  fst (gen_run_hist wE 50 [mk_op KImp [CN 1] SV; mk_op KImp [CN 1] SV] init)
  = [VErr ENotFound; VErr ENotFound] /\
  (exists st1 bd en, gen_begin_import wE [0; 1] init = (BEval bd, st1) /\ s_cache st1 [0; 1] = Some en /\
                     e_evaluating en = true).
Proof.
  split; [vm_compute; reflexivity|].
  eexists. eexists. eexists. split; [vm_compute; reflexivity|]. split; vm_compute; reflexivity.
Qed.

Example src_nonvac_strbin :
  let st := snd (gen_run_hist wA 50 [opA] init) in
  (forall k, s_calls st <= k -> fault wA k = false) /\
  fst (gen_run_op wA 50 (mk_op KStr [CN 2] SV) st) = VStr 1.
Proof.
  split.
  - intro k. apply wA_fault_free_from. vm_compute. reflexivity.
  - vm_compute. reflexivity.
Qed.
