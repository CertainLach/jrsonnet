(** C07 — the property theorems; their lemmas are in Proofs.v. *)
From Coq Require Import List NArith.
From JrV Require Import C07.Model C07.Proofs.
Import ListNotations.
Open Scope N_scope.

(** resolve_from answers what the first candidate (importer's directory, then the library list in
    order; cwd only for the CLI input marker) that is anything but `not found` decides. *)
Theorem C07_resolve_refines :
  forall f cwd libs from raw,
    decides f (candidates cwd libs from raw) (resolve_impl f cwd libs from raw).
Proof. exact resolve_refines. Qed.
Print Assumptions C07_resolve_refines.

(** ... and that specification decides at most one outcome. *)
Theorem C07_resolve_spec_functional :
  forall f cs r1 r2, decides f cs r1 -> decides f cs r2 -> r1 = r2.
Proof.
  intros f cs. induction cs as [|x cs IH]; intros r1 r2 H1 H2.
  - apply decides_nil_inv in H1. apply decides_nil_inv in H2. congruence.
  - apply decides_cons_inv in H1. apply decides_cons_inv in H2.
    destruct H1 as [[M1 D1]|[N1 E1]], H2 as [[M2 D2]|[N2 E2]]; try congruence.
    apply IH; auto.
Qed.
Print Assumptions C07_resolve_spec_functional.

(** The right-most -J is searched first ... *)
Theorem C07_cli_path_order :
  forall A (js : list A) j env, search_list (js ++ [j]) env = j :: search_list js env.
Proof. exact search_list_snoc. Qed.
Print Assumptions C07_cli_path_order.

(** ... and the JSONNET_PATH entries come after every -J, in order (the two determine the list). *)
Theorem C07_cli_path_env_last :
  forall A (env : list A), search_list [] env = env.
Proof. exact search_list_nil. Qed.
Print Assumptions C07_cli_path_env_last.

(** Over EVERY history of operations and EVERY fault schedule: a file (canonical path) is read
    successfully at most once per State, whatever its content and whatever spellings, symlinks,
    import kinds or importers reach it (non-UTF-8 files too since the repair c43636f). *)
Theorem C07_load_once :
  forall w fuel h c,
    (count (is_ok_load c) (s_log (snd (run_hist w fuel h init))) <= 1)%nat.
Proof. exact load_once. Qed.
Print Assumptions C07_load_once.

(** Over every history and fault schedule: the body of a file completes evaluation at most once,
    and no evaluation of it starts after one has completed. *)
Theorem C07_eval_once :
  forall w fuel h c,
    (count (is_done c) (s_log (snd (run_hist w fuel h init))) <= 1)%nat /\
    no_start_after_done c (s_log (snd (run_hist w fuel h init))).
Proof. exact eval_once. Qed.
Print Assumptions C07_eval_once.

(** After any history, whatever is cached: importstr / importbin answer exactly the content of the
    file their path resolves to. *)
Theorem C07_content_exact :
  forall w fuel h o cid,
    let st := snd (run_hist w fuel h init) in
    (fst (run_op w fuel o st) = VStr cid \/ fst (run_op w fuel o st) = VBytes cid) ->
    exists c, resolve_impl (w_fs w) (w_cwd w) (w_libs w) (op_src o) (t_path (o_term o)) = RHit c /\
              fs_file (w_fs w) c = Some cid.
Proof. exact content_exact. Qed.
Print Assumptions C07_content_exact.

(** Importing a file whose body is being evaluated is an InfiniteRecursionDetected error that
    changes nothing (no load, no cache change) ... *)
Theorem C07_strict_cycle_error :
  forall w f c st en b,
    s_cache st c = Some en -> e_evaluating en = true -> e_evaluated en = None ->
    e_string en = true -> body_of w (e_cid en) = Some b ->
    fst (run w (S f) (KFile c) st) = Err ECycle /\
    (forall c', s_cache (snd (run w (S f) (KFile c) st)) c' = s_cache st c') /\
    s_log (snd (run w (S f) (KFile c) st)) = s_log st /\
    s_calls (snd (run w (S f) (KFile c) st)) = s_calls st.
Proof. exact strict_cycle_error. Qed.
Print Assumptions C07_strict_cycle_error.

(** ... and while a body is being evaluated its file is in exactly that state.  (The graph-level
    statement `every strict import cycle is an error` is checked on concrete cycles only:
    cycle3_is_an_error_and_the_state_stays_usable and the correspondence.) *)
Theorem C07_evaluating_flag_set :
  forall w c st bd st1,
    begin_import w c st = (BEval bd, st1) -> good w st ->
    exists en, s_cache st1 c = Some en /\ e_evaluating en = true /\ e_evaluated en = None /\
               e_string en = true /\ body_of w (e_cid en) = Some bd.
Proof.
  intros w c st bd st1 H G.
  destruct (begin_ok _ _ _ _ _ H G) as [st2 [en1 [_ [_ [_ [_ [V [S [B ->]]]]]]]]].
  exists (with_evaluating true en1). split; [apply cache_set_same | auto].
Qed.
Print Assumptions C07_evaluating_flag_set.

(** PARTIAL.  Full statement (DESIGN 5/C07): the cache after h ++ [o], o faulting, is observationally
    equal to the cache after h.  Proved, for every history and fault schedule: no `evaluating` flag
    left set, no field left pending, every entry holds the content of its file; C07_cache_monotone;
    C07_strbin_transparent (the full statement for importstr / importbin).  Missing: value
    transparency for `import` (checked by the correspondence); FALSE for lazy fields of cached
    objects, see C07_fault_transparent_refuted. *)
Theorem C07_fault_transparent_partial :
  forall w fuel h,
    let st := snd (run_hist w fuel h init) in
    quiescent st /\ no_pending st /\ coherent w st.
Proof. exact state_usable. Qed.
Print Assumptions C07_fault_transparent_partial.

(** No operation, failing or not, drops or changes what an earlier one cached. *)
Theorem C07_cache_monotone :
  forall w fuel h o c en,
    let st := snd (run_hist w fuel h init) in
    s_cache st c = Some en ->
    exists en', s_cache (snd (run_op w fuel o st)) c = Some en' /\ e_cid en' = e_cid en /\
                (forall v, e_evaluated en = Some v -> e_evaluated en' = Some v).
Proof.
  intros w fuel h o c en st. destruct (reach_good w fuel h) as [G _].
  destruct (run_op_ok w fuel o st G) as [_ [X _]]. exact (x_mono _ _ X c en).
Qed.
Print Assumptions C07_cache_monotone.

(** Once the resolver failures have cleared, importstr / importbin answer, after ANY history,
    exactly what they answer in a fresh State. *)
Theorem C07_strbin_transparent :
  forall w fuel h o,
    t_kind (o_term o) <> KImp ->
    let st := snd (run_hist w fuel h init) in
    (forall k, s_calls st <= k -> fault w k = false) ->
    fst (run_op w fuel o st) = fresh_result w fuel o.
Proof. exact strbin_transparent. Qed.
Print Assumptions C07_strbin_transparent.

(** KNOWN FINDING C07-field-error-cached: a lazy field of an imported object whose import failed
    once keeps failing on the same State after the failure has cleared. *)
Theorem C07_fault_transparent_refuted :
  exists w fuel h o,
    let st := snd (run_hist w fuel h init) in
    (forall k, s_calls st <= k -> fault w k = false) /\
    fst (run_op w fuel o st) <> fresh_result w fuel o.
Proof.
  exists wA, 50%nat, [opA], opA. split; [exact wA_faults_cleared|]. vm_compute. discriminate.
Qed.
Print Assumptions C07_fault_transparent_refuted.

