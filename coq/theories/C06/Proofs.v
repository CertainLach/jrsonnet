(* C06 — lemmas about the Pratt loop of Model.v: a verdict does not depend on the fuel, tables that
   compare alike parse alike, and the reference table parses what the grammar says. *)
From Coq Require Import NArith List Bool Arith Lia.
From JrV Require Import Common.PrecOps Gen.GenPrec C06.Model.
Import ListNotations.

(* the propagation of [Err] and [OutOfFuel] that [expr_bp] and [loop] write out at every call *)
Definition and_then {A B} (x : res A) (k : A -> res B) : res B :=
  match x with Ok a => k a | Err => Err | OutOfFuel => OutOfFuel end.

Lemma and_then_ok {A B} (x : res A) (k : A -> res B) b :
  and_then x k = Ok b -> exists a, x = Ok a /\ k a = Ok b.
Proof. destruct x as [a| |]; try discriminate. intros H. exists a. auto. Qed.

Lemma and_then_ext {A B} (x : res A) (k k' : A -> res B) :
  (forall a, x = Ok a -> k a = k' a) -> and_then x k = and_then x k'.
Proof. destruct x; simpl; auto. Qed.

Lemma and_then_fuel {A B} (x : res A) (k : A -> res B) :
  x <> OutOfFuel -> (forall a, x = Ok a -> k a <> OutOfFuel) -> and_then x k <> OutOfFuel.
Proof. intros X K. destruct x as [a| |]; [apply K; reflexivity|discriminate|now contradiction X]. Qed.

Definition refines {A} (r r' : res A) : Prop := r <> OutOfFuel -> r' = r.

Lemma refines_refl {A} (r : res A) : refines r r.
Proof. easy. Qed.

Lemma and_then_refines {A B} (x x' : res A) (k k' : A -> res B) :
  refines x x' -> (forall a, refines (k a) (k' a)) -> refines (and_then x k) (and_then x' k').
Proof.
  intros X K. destruct x as [a| |]; simpl.
  - rewrite X by discriminate. apply K.
  - rewrite X by discriminate. apply refines_refl.
  - easy.
Qed.

(* one unfolding each, the chains of [match] on [res] of Model.v written with [and_then] *)
Lemma expr_bp_S f T min ts :
  expr_bp (S f) T min ts =
  match ts with
  | [] => Err
  | t :: rest =>
    match unop_of_tok t with
    | Some u =>
      match pbp T u with
      | None => Err
      | Some p => and_then (expr_bp f T p rest) (fun '(rhs, r') => loop f T min (EUn u rhs) r')
      end
    | None =>
      match t with
      | TAtom n => loop f T min (EAtom n) rest
      | TLP =>
        and_then (expr_bp f T 0%N rest)
          (fun '(e, r') => match r' with TRP :: r'' => loop f T min e r'' | _ => Err end)
      | _ => Err
      end
    end
  end.
Proof. reflexivity. Qed.

Lemma loop_S f T min lhs ts :
  loop (S f) T min lhs ts =
  match ts with
  | [] => Ok (lhs, ts)
  | t :: rest =>
    match binop_of_tok t with
    | None => Ok (lhs, ts)
    | Some b =>
      if (lbp T b <? min)%N then Ok (lhs, ts)
      else and_then (expr_bp f T (rbp T b) rest) (fun '(rhs, r') => loop f T min (EBin b lhs rhs) r')
    end
  end.
Proof. reflexivity. Qed.

Lemma fuel_mono : forall f f' T, f <= f' ->
  (forall m ts, refines (expr_bp f T m ts) (expr_bp f' T m ts)) /\
  (forall m l ts, refines (loop f T m l ts) (loop f' T m l ts)).
Proof.
  induction f as [|f IH]; intros f' T L.
  - split; intros; easy.
  - destruct f' as [|f']; [lia|]. destruct (IH f' T) as [IE IL]; [lia|]. split.
    + intros m ts. rewrite (expr_bp_S f'), (expr_bp_S f).
      destruct ts as [|t rest]; [apply refines_refl|].
      destruct (unop_of_tok t) as [u|].
      * destruct (pbp T u) as [p|]; [|apply refines_refl].
        apply and_then_refines; [apply IE|]. intros [rhs r']. apply IL.
      * destruct t; try apply refines_refl; [apply IL|].
        apply and_then_refines; [apply IE|].
        intros [e [|[] r']]; try apply refines_refl. apply IL.
    + intros m l ts. rewrite (loop_S f'), (loop_S f).
      destruct ts as [|t rest]; [apply refines_refl|].
      destruct (binop_of_tok t) as [b|]; [|apply refines_refl].
      destruct (lbp T b <? m)%N; [apply refines_refl|].
      apply and_then_refines; [apply IE|]. intros [rhs r']. apply IL.
Qed.

Lemma all_binops_complete : forall b, List.In b all_binops.
Proof. destruct b; unfold all_binops; simpl; repeat (try (left; reflexivity); right). Qed.

Lemma all_unops_complete : forall u, List.In u all_unops.
Proof. destruct u; unfold all_unops; simpl; repeat (try (left; reflexivity); right). Qed.

Lemma all_minsrc_complete : forall m, List.In m all_minsrc.
Proof.
  intros m. unfold all_minsrc. destruct m as [|u|b].
  - left; reflexivity.
  - right. apply in_or_app. left. apply in_map. apply all_unops_complete.
  - right. apply in_or_app. right. apply in_map. apply all_binops_complete.
Qed.

Lemma binops_of_cons t rest :
  binops_of (t :: rest) = (match binop_of_tok t with Some b => [b] | None => [] end) ++ binops_of rest.
Proof. reflexivity. Qed.

Lemma binops_tail t rest : incl (binops_of rest) (binops_of (t :: rest)).
Proof. rewrite binops_of_cons. apply incl_appr. apply incl_refl. Qed.

Lemma ltb_zero n : (n <? 0)%N = false.
Proof. destruct n; reflexivity. Qed.

Section Equiv.
  Variables (T1 T2 : table) (ok : minsrc -> binop -> bool) (oku : unop -> bool).
  Hypothesis Hok : forall m c, ok m c = true -> agree T1 T2 m c = true.
  Hypothesis Hoku : forall u, oku u = true -> avail T1 T2 u = true.

  Definition mins_agree (m1 m2 : N) (ts : list tok) : Prop :=
    forall c, List.In c (binops_of ts) -> (lbp T1 c <? m1)%N = (lbp T2 c <? m2)%N.

  Lemma mins_agree_incl m1 m2 ts ts' :
    incl (binops_of ts') (binops_of ts) -> mins_agree m1 m2 ts -> mins_agree m1 m2 ts'.
  Proof. intros I H c Hc. apply H. apply I. exact Hc. Qed.

  Lemma agree_spec m c m1 m2 :
    agree T1 T2 m c = true -> minval T1 m = Some m1 -> minval T2 m = Some m2 ->
    (lbp T1 c <? m1)%N = (lbp T2 c <? m2)%N.
  Proof.
    unfold agree. intros A E1 E2. rewrite E1, E2 in A. apply eqb_prop. exact A.
  Qed.

  Lemma mins_from_ok m rest m1 m2 :
    forallb (ok m) (binops_of rest) = true -> minval T1 m = Some m1 -> minval T2 m = Some m2 ->
    mins_agree m1 m2 rest.
  Proof.
    intros F E1 E2 c Hc. rewrite forallb_forall in F.
    eapply agree_spec; eauto.
  Qed.

  Lemma keeps : forall f T,
    (forall m ts e r, expr_bp f T m ts = Ok (e, r) -> lex_ok ok oku true ts = true ->
                      lex_ok ok oku false r = true /\ incl (binops_of r) (binops_of ts)) /\
    (forall m l ts e r, loop f T m l ts = Ok (e, r) -> lex_ok ok oku false ts = true ->
                        lex_ok ok oku false r = true /\ incl (binops_of r) (binops_of ts)).
  Proof.
    induction f as [|f IH]; intros T.
    - split; intros; discriminate.
    - destruct (IH T) as [IE IL]. split.
      + intros m ts e r H LX. rewrite expr_bp_S in H.
        destruct ts as [|t rest]; [discriminate|].
        cbn [lex_ok] in LX.
        destruct (unop_of_tok t) as [u|].
        * destruct (pbp T u) as [p|]; [|discriminate].
          apply andb_prop in LX as [_ LX].
          apply and_then_ok in H as ([rhs r'] & E & H).
          destruct (IE _ _ _ _ E LX) as [K1 K2].
          destruct (IL _ _ _ _ _ H K1) as [K3 K4].
          eauto using incl_tran, binops_tail.
        * destruct t; try discriminate.
          -- destruct (IL _ _ _ _ _ H LX) as [K3 K4].
             eauto using incl_tran, binops_tail.
          -- apply and_then_ok in H as ([e0 [|[] r']] & E & H); try discriminate.
             destruct (IE _ _ _ _ E LX) as [K1 K2].
             destruct (IL _ _ _ _ _ H K1) as [K3 K4].
             split; [exact K3|]. eapply incl_tran; [exact K4|].
             eapply incl_tran; [apply (binops_tail TRP)|]. eauto using incl_tran, binops_tail.
      + intros m l ts e r H LX. rewrite loop_S in H.
        assert (STOP : Ok (l, ts) = Ok (e, r) ->
                       lex_ok ok oku false r = true /\ incl (binops_of r) (binops_of ts)).
        { intros [= <- <-]. split; [exact LX|apply incl_refl]. }
        destruct ts as [|t rest]; [auto|].
        cbn [lex_ok] in LX.
        destruct (binop_of_tok t) as [b|]; [|auto].
        destruct (lbp T b <? m)%N; [auto|].
        apply andb_prop in LX as [_ LX].
        apply and_then_ok in H as ([rhs r'] & E & H).
        destruct (IE _ _ _ _ E LX) as [K1 K2].
        destruct (IL _ _ _ _ _ H K1) as [K3 K4].
        eauto using incl_tran, binops_tail.
  Qed.

  Lemma mins_agree_after f T m m1 m2 t rest e r :
    expr_bp f T m rest = Ok (e, r) -> lex_ok ok oku true rest = true ->
    mins_agree m1 m2 (t :: rest) ->
    mins_agree m1 m2 r /\ lex_ok ok oku false r = true.
  Proof.
    intros E LX MA. destruct (proj1 (keeps f T) _ _ _ _ E LX) as [K1 K2].
    split; [|exact K1].
    eapply mins_agree_incl; [|exact MA]. eapply incl_tran; [exact K2|apply binops_tail].
  Qed.

  Lemma mins_agree_zero ts : mins_agree 0 0 ts.
  Proof. intros c _. rewrite !ltb_zero. reflexivity. Qed.

  Lemma equiv_gen : forall f,
    (forall m1 m2 ts, mins_agree m1 m2 ts -> lex_ok ok oku true ts = true ->
                      expr_bp f T1 m1 ts = expr_bp f T2 m2 ts) /\
    (forall m1 m2 l ts, mins_agree m1 m2 ts -> lex_ok ok oku false ts = true ->
                        loop f T1 m1 l ts = loop f T2 m2 l ts).
  Proof.
    induction f as [|f [IE IL]].
    - split; intros; reflexivity.
    - split.
      + intros m1 m2 ts MA LX. rewrite !expr_bp_S.
        destruct ts as [|t rest]; [reflexivity|].
        cbn [lex_ok] in LX.
        destruct (unop_of_tok t) as [u|].
        * apply andb_prop in LX as [LX L3]. apply andb_prop in LX as [L1 L2].
          pose proof (Hoku _ L1) as AV. apply eqb_prop in AV.
          destruct (pbp T1 u) as [p1|] eqn:P1; destruct (pbp T2 u) as [p2|] eqn:P2;
            try discriminate; [|reflexivity].
          rewrite <- (IE p1 p2 rest) by (eauto using (mins_from_ok (MUn u))).
          apply and_then_ext. intros [rhs r'] E.
          apply IL; eapply mins_agree_after; eauto.
        * destruct t; try reflexivity.
          -- apply IL; [|exact LX]. eapply mins_agree_incl; [apply binops_tail|exact MA].
          -- rewrite <- (IE 0%N 0%N rest) by (auto using mins_agree_zero).
             apply and_then_ext. intros [e0 [|[] r']] E; try reflexivity.
             destruct (mins_agree_after _ _ _ _ _ TLP _ _ _ E LX MA) as [MA' LX'].
             apply IL; [|exact LX'].
             eapply mins_agree_incl; [apply binops_tail|exact MA'].
      + intros m1 m2 l ts MA LX. rewrite !loop_S.
        destruct ts as [|t rest]; [reflexivity|].
        cbn [lex_ok] in LX.
        destruct (binop_of_tok t) as [b|] eqn:B; [|reflexivity].
        rewrite <- (MA b) by (rewrite binops_of_cons, B; left; reflexivity).
        destruct (lbp T1 b <? m1)%N; [reflexivity|].
        apply andb_prop in LX as [L1 L2].
        rewrite <- (IE (rbp T1 b) (rbp T2 b) rest) by (eauto using (mins_from_ok (MBin b))).
        apply and_then_ext. intros [rhs r'] E.
        apply IL; eapply mins_agree_after; eauto.
  Qed.

  Lemma equiv_parse_fuel : forall ts, lex_ok ok oku true ts = true ->
    forall fuel, parse_fuel fuel T1 ts = parse_fuel fuel T2 ts.
  Proof.
    intros ts LX fuel. unfold parse_fuel.
    rewrite (proj1 (equiv_gen fuel) 0%N 0%N ts (mins_agree_zero ts) LX). reflexivity.
  Qed.
End Equiv.

Lemma tables_agree_on_spec ok oku T1 T2 :
  tables_agree_on ok oku T1 T2 = true ->
  (forall m c, ok m c = true -> agree T1 T2 m c = true) /\
  (forall u, oku u = true -> avail T1 T2 u = true).
Proof.
  unfold tables_agree_on. intros H. apply andb_prop in H. destruct H as [H1 H2].
  rewrite forallb_forall in H1, H2. split.
  - intros m c O. specialize (H1 m (all_minsrc_complete m)). rewrite forallb_forall in H1.
    specialize (H1 c (all_binops_complete c)). rewrite O in H1. exact H1.
  - intros u O. specialize (H2 u (all_unops_complete u)). rewrite O in H2. exact H2.
Qed.

Lemma bp_equiv_parse_eq : forall T1 T2 ok oku,
  tables_agree_on ok oku T1 T2 = true ->
  forall ts, lex_ok ok oku true ts = true ->
  forall fuel, parse_fuel fuel T1 ts = parse_fuel fuel T2 ts.
Proof.
  intros T1 T2 ok oku H. destruct (tables_agree_on_spec _ _ _ _ H) as [H1 H2].
  exact (equiv_parse_fuel T1 T2 ok oku H1 H2).
Qed.

(* the hypothesis has the shape of [known_unary_mul], [known_rowan] and [uses_unary_plus] *)
Lemma bp_equiv_outside : forall T1 T2 ok oku,
  tables_agree_on ok oku T1 T2 = true ->
  forall ts, negb (lex_ok ok oku true ts) = false -> parse T1 ts = parse T2 ts.
Proof.
  intros T1 T2 ok oku H ts K. apply negb_false_iff in K.
  exact (bp_equiv_parse_eq _ _ _ _ H ts K _).
Qed.

Definition ok_all (m : minsrc) (c : binop) : bool := true.

Lemma lex_ok_all : forall ts st, lex_ok ok_all oku_all st ts = true.
Proof.
  induction ts as [|t rest IH]; intros st; [reflexivity|].
  assert (F : forall m, forallb (ok_all m) (binops_of rest) = true)
    by (intros m; apply forallb_forall; reflexivity).
  cbn [lex_ok]. destruct st.
  - destruct (unop_of_tok t).
    + rewrite F, IH. reflexivity.
    + destruct t; auto.
  - destruct (binop_of_tok t).
    + rewrite F, IH. reflexivity.
    + destruct t; auto.
Qed.

(* decided by computation over all 24 x 19 comparisons of the REGENERATED tables *)
Lemma ir_ref_agree : tables_agree_on ok_unary_mul oku_all tbl_ir tbl_ref = true.
Proof. vm_compute. reflexivity. Qed.

(* since /repo 1596e0a (`^` left-associative) the legacy parser's level list has no excused comparison *)
Lemma peg_ref_agree : tables_agree_on ok_all oku_all tbl_peg tbl_ref = true.
Proof. vm_compute. reflexivity. Qed.

Lemma rowan_ref_agree : tables_agree_on ok_unary_mul oku_no_plus tbl_rowan tbl_ref = true.
Proof. vm_compute. reflexivity. Qed.

Lemma rowan_ir_agree : tables_agree_on ok_all oku_no_plus tbl_rowan tbl_ir = true.
Proof. vm_compute. reflexivity. Qed.

Definition uses_unary_plus (ts : list tok) : bool := negb (lex_ok ok_all oku_no_plus true ts).

(* the rules after [same_fuel] compose successful runs without mention of fuel *)
Definition expr_yields (T : table) (m : N) (ts : list tok) (x : expr * list tok) : Prop :=
  exists f, expr_bp f T m ts = Ok x.
Definition loop_yields (T : table) (m : N) (l : expr) (ts : list tok) (x : expr * list tok) : Prop :=
  exists f, loop f T m l ts = Ok x.

Lemma same_fuel T p ts a m l r x :
  expr_yields T p ts a -> loop_yields T m l r x ->
  exists f, expr_bp f T p ts = Ok a /\ loop f T m l r = Ok x.
Proof.
  intros [f1 H1] [f2 H2]. exists (Nat.max f1 f2). split.
  - rewrite (proj1 (fuel_mono _ _ T (Nat.le_max_l f1 f2))); rewrite H1; easy.
  - rewrite (proj2 (fuel_mono _ _ T (Nat.le_max_r f1 f2))); rewrite H2; easy.
Qed.

Lemma unop_tok_roundtrip u : unop_of_tok (tok_of_unop u) = Some u.
Proof. destruct u; reflexivity. Qed.

Lemma yields_atom T m n rest x :
  loop_yields T m (EAtom n) rest x -> expr_yields T m (TAtom n :: rest) x.
Proof. intros [f L]. exists (S f). exact L. Qed.

Lemma yields_unop T m u p rest rhs r' x :
  pbp T u = Some p -> expr_yields T p rest (rhs, r') -> loop_yields T m (EUn u rhs) r' x ->
  expr_yields T m (tok_of_unop u :: rest) x.
Proof.
  intros P E L. destruct (same_fuel _ _ _ _ _ _ _ _ E L) as (f & HE & HL).
  exists (S f). rewrite expr_bp_S, unop_tok_roundtrip, P, HE. exact HL.
Qed.

Lemma yields_paren T m rest e r' x :
  expr_yields T 0 rest (e, TRP :: r') -> loop_yields T m e r' x -> expr_yields T m (TLP :: rest) x.
Proof.
  intros E L. destruct (same_fuel _ _ _ _ _ _ _ _ E L) as (f & HE & HL).
  exists (S f). rewrite expr_bp_S. cbn [unop_of_tok]. rewrite HE. exact HL.
Qed.

Lemma yields_stop T m l ts :
  (forall c r, ts = TOp c :: r -> (lbp T c < m)%N) -> loop_yields T m l ts (l, ts).
Proof.
  intros H. exists 1. rewrite loop_S. destruct ts as [|[] r]; try reflexivity.
  cbn [binop_of_tok]. rewrite (proj2 (N.ltb_lt _ _) (H _ _ eq_refl)). reflexivity.
Qed.

Lemma yields_step T m l b rest rhs r' x :
  (m <= lbp T b)%N -> expr_yields T (rbp T b) rest (rhs, r') -> loop_yields T m (EBin b l rhs) r' x ->
  loop_yields T m l (TOp b :: rest) x.
Proof.
  intros M E L. destruct (same_fuel _ _ _ _ _ _ _ _ E L) as (f & HE & HL).
  exists (S f). rewrite loop_S. cbn [binop_of_tok].
  rewrite (proj2 (N.ltb_ge _ _) M), HE. exact HL.
Qed.

Lemma ref_level_bounds : forall b, (1 <= ref_level b <= 10)%N.
Proof. destruct b; simpl; lia. Qed.

Section Roundtrip.
  Variable T : table.
  Hypothesis HL : forall b, lbp T b = (2 * ref_level b)%N.
  Hypothesis HR : forall b, rbp T b = (2 * ref_level b + 1)%N.
  Hypothesis HP : forall u, pbp T u = Some (2 * unary_level)%N.

  Definition allowed (p : pexpr) (min : N) : Prop :=
    match p with PBin b _ _ => (min <= 2 * ref_level b)%N | _ => True end.

  Definition ok_after (p : pexpr) (rest : list tok) : Prop :=
    match p with
    | PBin b _ _ => forall c r, rest = TOp c :: r -> (ref_level c <= ref_level b)%N
    | _ => True
    end.

  Lemma allowed_of_level p min : (min <= 2 * top_level p)%N -> allowed p min.
  Proof. destruct p; simpl; auto. Qed.

  Lemma ok_after_of_level p rest :
    (forall c r, rest = TOp c :: r -> (ref_level c <= top_level p)%N) -> ok_after p rest.
  Proof. destruct p; simpl; auto. Qed.

  (* Parsing [flatten p ++ rest] at [min] is running the loop at [min] on [erase p] with [rest], provided
     [min] lets the top operator of [p] in and [rest] does not start with a tighter one. *)
  Lemma flatten_parses : forall p, wf p = true ->
    forall min rest x, allowed p min -> ok_after p rest ->
      loop_yields T min (erase p) rest x -> expr_yields T min (flatten p ++ rest) x.
  Proof.
    induction p as [n|u q IHq|b l IHl r IHr|q IHq]; intros W min rest x AL OA H;
      cbn [wf flatten erase allowed ok_after app] in *.
    - apply yields_atom. exact H.
    - apply andb_prop in W as [W1 W2]. apply N.leb_le in W1. unfold unary_level in W1.
      apply (yields_unop _ _ _ _ _ _ _ _ (HP u)) with (2 := H).
      apply (IHq W2); unfold unary_level.
      + apply allowed_of_level. lia.
      + apply ok_after_of_level. intros c _ _. pose proof (ref_level_bounds c). lia.
      + apply yields_stop. intros c _ _. rewrite HL. pose proof (ref_level_bounds c). lia.
    - apply andb_prop in W as [W Wr]. apply andb_prop in W as [W Wl].
      apply andb_prop in W as [W1 W2]. apply N.leb_le in W1. apply N.ltb_lt in W2.
      rewrite <- app_assoc. apply (IHl Wl).
      + apply allowed_of_level. lia.
      + apply ok_after_of_level. intros c r0 [= <- _]. exact W1.
      + apply yields_step with (3 := H); [rewrite HL; exact AL|].
        rewrite HR. apply (IHr Wr).
        * apply allowed_of_level. lia.
        * apply ok_after_of_level. intros c r0 E. specialize (OA c r0 E). lia.
        * apply yields_stop. intros c r0 E. specialize (OA c r0 E). rewrite HL. lia.
    - apply yields_paren with (2 := H). rewrite <- app_assoc. apply (IHq W).
      + apply allowed_of_level. lia.
      + apply ok_after_of_level. discriminate.
      + apply yields_stop. discriminate.
  Qed.

  Lemma roundtrip_fuel : forall p, wf p = true ->
    exists fuel, parse_fuel fuel T (flatten p) = Ok (erase p).
  Proof.
    intros p W.
    destruct (flatten_parses p W 0%N [] (erase p, [])) as [f H].
    - apply allowed_of_level. lia.
    - apply ok_after_of_level. discriminate.
    - apply yields_stop. discriminate.
    - exists f. unfold parse_fuel. rewrite app_nil_r in H. rewrite H. reflexivity.
  Qed.
End Roundtrip.

Lemma erase_minimal : forall e, erase (minimal e) = e.
Proof.
  induction e as [n|u x IH|b l IHl r IHr]; simpl.
  - reflexivity.
  - destruct (unary_level <=? top_level (minimal x))%N; simpl; rewrite IH; reflexivity.
  - destruct (ref_level b <=? top_level (minimal l))%N;
      destruct (ref_level b <? top_level (minimal r))%N; simpl; rewrite IHl, IHr; reflexivity.
Qed.

Lemma wf_minimal : forall e, wf (minimal e) = true.
Proof.
  induction e as [n|u x IH|b l IHl r IHr]; simpl.
  - reflexivity.
  - destruct (unary_level <=? top_level (minimal x))%N eqn:E; simpl.
    + rewrite E, IH. reflexivity.
    + rewrite IH. reflexivity.
  - pose proof (ref_level_bounds b) as Bb.
    assert (P1 : (ref_level b <=? unary_level)%N = true) by (apply N.leb_le; unfold unary_level; lia).
    assert (P2 : (ref_level b <? unary_level)%N = true) by (apply N.ltb_lt; unfold unary_level; lia).
    destruct (ref_level b <=? top_level (minimal l))%N eqn:E1;
      destruct (ref_level b <? top_level (minimal r))%N eqn:E2; simpl;
      rewrite ?E1, ?E2, ?P1, ?P2, ?IHl, ?IHr; reflexivity.
Qed.

Lemma shorter : forall f T,
  (forall m ts e r, expr_bp f T m ts = Ok (e, r) -> length r <= length ts) /\
  (forall m l ts e r, loop f T m l ts = Ok (e, r) -> length r <= length ts).
Proof.
  induction f as [|f IH]; intros T.
  - split; intros; discriminate.
  - destruct (IH T) as [IE IL]. split.
    + intros m ts e r H. rewrite expr_bp_S in H.
      destruct ts as [|t rest]; [discriminate|]. cbn [length].
      destruct (unop_of_tok t) as [u|].
      * destruct (pbp T u) as [p|]; [|discriminate].
        apply and_then_ok in H as ([rhs r'] & E & H).
        apply IE in E. apply IL in H. lia.
      * destruct t; try discriminate.
        -- apply IL in H. lia.
        -- apply and_then_ok in H as ([e0 [|[] r']] & E & H); try discriminate.
           apply IE in E. apply IL in H. cbn [length] in E. lia.
    + intros m l ts e r H. rewrite loop_S in H.
      destruct ts as [|t rest]; [injection H as _ <-; auto|].
      destruct (binop_of_tok t) as [b|]; [|injection H as _ <-; auto].
      destruct (lbp T b <? m)%N; [injection H as _ <-; auto|]. cbn [length].
      apply and_then_ok in H as ([rhs r'] & E & H).
      apply IE in E. apply IL in H. lia.
Qed.

Lemma enough : forall f T,
  (forall m ts, 2 * length ts + 1 <= f -> expr_bp f T m ts <> OutOfFuel) /\
  (forall m l ts, 2 * length ts + 1 <= f -> loop f T m l ts <> OutOfFuel).
Proof.
  induction f as [|f IH]; intros T.
  - split; intros; lia.
  - destruct (IH T) as [IE IL]. split.
    + intros m ts H. rewrite expr_bp_S.
      destruct ts as [|t rest]; [discriminate|]. cbn [length] in H.
      destruct (unop_of_tok t) as [u|].
      * destruct (pbp T u) as [p|]; [|discriminate].
        apply and_then_fuel; [apply IE; lia|]. intros [rhs r'] E.
        apply (proj1 (shorter f T)) in E. apply IL. lia.
      * destruct t; try discriminate.
        -- apply IL. lia.
        -- apply and_then_fuel; [apply IE; lia|]. intros [e0 [|[] r']] E; try discriminate.
           apply (proj1 (shorter f T)) in E. cbn [length] in E. apply IL. lia.
    + intros m l ts H. rewrite loop_S.
      destruct ts as [|t rest]; [discriminate|]. cbn [length] in H.
      destruct (binop_of_tok t) as [b|]; [|discriminate].
      destruct (lbp T b <? m)%N; [discriminate|].
      apply and_then_fuel; [apply IE; lia|]. intros [rhs r'] E.
      apply (proj1 (shorter f T)) in E. apply IL. lia.
Qed.

Lemma parse_fuel_mono : forall f f' T ts,
  f <= f' -> parse_fuel f T ts <> OutOfFuel -> parse_fuel f' T ts = parse_fuel f T ts.
Proof.
  unfold parse_fuel. intros f f' T ts L NO.
  rewrite (proj1 (fuel_mono f f' T L)); [reflexivity|].
  intros E. rewrite E in NO. exact (NO eq_refl).
Qed.

Lemma parse_not_out_of_fuel : forall T ts, parse T ts <> OutOfFuel.
Proof.
  intros T ts. unfold parse, parse_fuel.
  pose proof (proj1 (enough (2 * length ts + 2) T) 0%N ts) as H.
  destruct (expr_bp (2 * length ts + 2) T 0%N ts) as [[e []]| |]; try discriminate.
  exfalso. apply H; [lia|reflexivity].
Qed.

Lemma parse_fuel_stable : forall T ts f, parse_fuel f T ts <> OutOfFuel -> parse_fuel f T ts = parse T ts.
Proof.
  intros T ts f NO. unfold parse.
  destruct (Nat.le_ge_cases f (2 * length ts + 2)) as [L|L].
  - symmetry. apply parse_fuel_mono; assumption.
  - apply parse_fuel_mono; [exact L|]. apply parse_not_out_of_fuel.
Qed.

(* a + b * -c << (d - e) - f : passes every scan *)
Definition ex_tokens : list tok :=
  [TAtom 0; TOp Add; TAtom 1; TOp Mul; TOp Sub; TAtom 2; TOp Lhs; TLP; TAtom 3; TOp Sub; TAtom 4; TRP;
   TOp Sub; TAtom 5].
Example ex_outside_known :
  known_unary_mul ex_tokens = false /\ known_rowan ex_tokens = false /\
  parse tbl_ref ex_tokens =
    Ok (EBin Lhs (EBin Add (EAtom 0) (EBin Mul (EAtom 1) (EUn UMinus (EAtom 2))))
                 (EBin Sub (EBin Sub (EAtom 3) (EAtom 4)) (EAtom 5))).
Proof. vm_compute. auto. Qed.

Definition ex_pexpr : pexpr :=
  PBin Lt (PBin Sub (PAtom 0) (PParen (PBin Sub (PAtom 1) (PAtom 2))))
          (PBin Add (PUn UNot (PParen (PBin Or (PAtom 3) (PAtom 4)))) (PParen (PParen (PAtom 5)))).
Example ex_wf : wf ex_pexpr = true /\ known_unary_mul (flatten ex_pexpr) = false.
Proof. vm_compute. auto. Qed.

(* the excused classes are needed: unrestricted agreement fails for ir and rowan *)
Example ex_tables_agree_nontrivial :
  tables_agree_on ok_all oku_all tbl_ir tbl_ref = false /\
  tables_agree_on ok_all oku_all tbl_rowan tbl_ref = false /\
  tables_agree_on ok_unary_mul oku_all tbl_ir tbl_ref = true.
Proof. vm_compute. auto. Qed.
