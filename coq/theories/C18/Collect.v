(** C18 — the cycle collector's criterion on an abstract object graph.

    Objects carry a reference count [rc] = references from outside the tracked space
    (stack, thread-locals: [ext]) + owning edges from tracked objects.  A collection
    subtracts, for every tracked object, the edges its [Trace] impl reports ([traced]);
    objects left with a positive number ([gc_ref]) are externally referenced, they and
    everything traced from them are kept ([marked]), the rest is released ([collected]).
    This is jrsonnet-gcmodule's algorithm seen from outside; it is tied to the real
    collector only by the tracked-count measurements of the correspondence check. *)
From Coq Require Import List Arith Lia.
Import ListNotations.

Section Collect.
  Variable node : Type.
  Variable node_eq_dec : forall a b : node, {a = b} + {a <> b}.
  Variable nodes : list node.
  Variable owns : node -> list node.          (* with multiplicity *)
  Variable traced : node -> list node.        (* edges visited by Trace::trace *)
  Variable ext : node -> nat.

  Definition in_edges (E : node -> list node) (x : node) : nat :=
    list_sum (map (fun n => count_occ node_eq_dec (E n) x) nodes).
  Definition rc (x : node) : nat := ext x + in_edges owns x.
  Definition gc_ref (x : node) : nat := rc x - in_edges traced x.

  Inductive marked : node -> Prop :=
  | m_seed x : In x nodes -> 0 < gc_ref x -> marked x
  | m_step x y : marked x -> In y (traced x) -> marked y.
  Definition collected (x : node) : Prop := In x nodes /\ ~ marked x.

  Inductive reachable : node -> Prop :=
  | r_root x : In x nodes -> 0 < ext x -> reachable x
  | r_own x y : reachable x -> In y (owns x) -> reachable y.

  Hypothesis owns_closed : forall n y, In n nodes -> In y (owns n) -> In y nodes.

  Lemma reachable_in x : reachable x -> In x nodes.
  Proof. induction 1; eauto. Qed.

  Lemma sum_le (f g : node -> nat) (l : list node) :
    (forall n, In n l -> f n <= g n) -> list_sum (map f l) <= list_sum (map g l).
  Proof.
    unfold list_sum. induction l as [|a l IH]; intros H; cbn [map fold_right]; [lia|].
    pose proof (H a (or_introl eq_refl)). assert (forall n, In n l -> f n <= g n) by (intros; apply H; right; auto).
    specialize (IH H1). lia.
  Qed.

  Lemma sum_lt (f g : node -> nat) (l : list node) x :
    (forall n, In n l -> f n <= g n) -> In x l -> f x < g x ->
    list_sum (map f l) < list_sum (map g l).
  Proof.
    pose proof (sum_le f g) as SL. unfold list_sum in *.
    induction l as [|a l IH]; intros H HI Hx; [contradiction|]. cbn [map fold_right].
    pose proof (H a (or_introl eq_refl)).
    assert (H1 : forall n, In n l -> f n <= g n) by (intros; apply H; right; auto).
    destruct HI as [->|HI].
    - pose proof (SL l H1). lia.
    - specialize (IH H1 HI Hx). lia.
  Qed.

  (** traced edges = owning edges *)
  Section Exact.
    Hypothesis trace_exact : forall n, In n nodes -> traced n = owns n.

    Lemma in_edges_exact x : in_edges traced x = in_edges owns x.
    Proof.
      unfold in_edges. f_equal. apply map_ext_in. intros n Hn. rewrite trace_exact; auto.
    Qed.

    Lemma gc_ref_exact x : gc_ref x = ext x.
    Proof. unfold gc_ref, rc. rewrite in_edges_exact. lia. Qed.

    Lemma marked_reachable x : marked x -> reachable x.
    Proof.
      induction 1 as [x Hx Hg|x y Hm IH Hy].
      - apply r_root; auto. rewrite gc_ref_exact in Hg. exact Hg.
      - eapply r_own; eauto. rewrite <- trace_exact; auto. apply reachable_in; auto.
    Qed.

    Lemma reachable_marked x : reachable x -> marked x.
    Proof.
      induction 1 as [x Hx He|x y Hr IH Hy].
      - apply m_seed; auto. rewrite gc_ref_exact. exact He.
      - eapply m_step; eauto. rewrite trace_exact; auto. apply reachable_in; auto.
    Qed.

    (** every unreachable object, so every garbage cycle, is released; no reachable one is *)
    Lemma collect_reclaims x : In x nodes -> (collected x <-> ~ reachable x).
    Proof.
      intros Hx. unfold collected. split.
      - intros [_ Hn] Hr. apply Hn, reachable_marked, Hr.
      - intros Hn. split; auto. intros Hm. apply Hn, marked_reachable, Hm.
    Qed.
  End Exact.

  (** under-tracing (e.g. `#[trace(skip)]` on an owning field) *)
  Section Under.
    Hypothesis trace_under :
      forall n z, In n nodes -> count_occ node_eq_dec (traced n) z <= count_occ node_eq_dec (owns n) z.

    Lemma in_edges_under x : in_edges traced x <= in_edges owns x.
    Proof. unfold in_edges. apply sum_le. intros n Hn. apply trace_under; auto. Qed.

    (** the target of an untraced owning edge is never released: a cycle through it leaks *)
    Lemma skipped_edge_leaks x y :
      In x nodes -> In y nodes ->
      count_occ node_eq_dec (traced x) y < count_occ node_eq_dec (owns x) y -> marked y.
    Proof.
      intros Hx Hy Hlt. apply m_seed; auto. unfold gc_ref, rc.
      assert (in_edges traced y < in_edges owns y); [|lia].
      unfold in_edges.
      apply (sum_lt (fun n => count_occ node_eq_dec (traced n) y)
                    (fun n => count_occ node_eq_dec (owns n) y) nodes x); auto.
    Qed.

    (** but a reachable object is never released *)
    Lemma collect_safe x : reachable x -> marked x.
    Proof.
      induction 1 as [x Hx He|x y Hr IH Hy].
      - apply m_seed; auto. unfold gc_ref, rc. pose proof (in_edges_under x). lia.
      - pose proof (reachable_in _ Hr) as Hx.
        destruct (in_dec node_eq_dec y (traced x)) as [Ht|Ht].
        + eapply m_step; eauto.
        + apply (skipped_edge_leaks x y); eauto.
          rewrite (proj1 (count_occ_not_In node_eq_dec (traced x) y) Ht).
          apply count_occ_In. exact Hy.
    Qed.
  End Under.
End Collect.

(** * Non-vacuity: a garbage 2-cycle next to a live chain *)
Definition ex_nodes : list nat := [0; 1; 2; 3].
Definition ex_owns (n : nat) : list nat :=
  match n with 0 => [1] | 1 => [0] | 2 => [3] | _ => [] end.   (* 0 <-> 1 garbage; 2 -> 3 live *)
Definition ex_ext (n : nat) : nat := match n with 2 => 1 | _ => 0 end.
(** the same graph with the edge 0 -> 1 behind a skipped field *)
Definition ex_traced_skip (n : nat) : list nat :=
  match n with 1 => [0] | 2 => [3] | _ => [] end.

Lemma ex_closed : forall n y, In n ex_nodes -> In y (ex_owns n) -> In y ex_nodes.
Proof.
  intros n y Hn Hy. unfold ex_nodes in *. cbn in Hn.
  destruct Hn as [<-|[<-|[<-|[<-|[]]]]]; cbn in Hy; intuition (subst; cbn; auto).
Qed.

Lemma ex_reach_only x : reachable nat ex_nodes ex_owns ex_ext x -> x = 2 \/ x = 3.
Proof.
  induction 1 as [x Hx He|x y Hr IH Hy].
  - unfold ex_ext in He. destruct x as [|[|[|x]]]; lia.
  - destruct IH as [E|E]; subst x; cbn in Hy; intuition.
Qed.

Example ex_cycle_collected :
  collected nat Nat.eq_dec ex_nodes ex_owns ex_owns ex_ext 0 /\
  collected nat Nat.eq_dec ex_nodes ex_owns ex_owns ex_ext 1 /\
  ~ collected nat Nat.eq_dec ex_nodes ex_owns ex_owns ex_ext 3.
Proof.
  pose proof (collect_reclaims nat Nat.eq_dec ex_nodes ex_owns ex_owns ex_ext ex_closed
                (fun _ _ => eq_refl)) as R.
  split; [|split].
  - apply R; [cbn; auto|]. intros Hr. apply ex_reach_only in Hr. lia.
  - apply R; [cbn; auto|]. intros Hr. apply ex_reach_only in Hr. lia.
  - rewrite R by (cbn; auto). intros Hn. apply Hn.
    apply (r_own _ _ _ _ 2); [apply r_root|]; cbn; auto.
Qed.

Example ex_skip_leaks : marked nat Nat.eq_dec ex_nodes ex_owns ex_traced_skip ex_ext 1.
Proof.
  apply (skipped_edge_leaks nat Nat.eq_dec ex_nodes ex_owns ex_traced_skip ex_ext) with (x := 0).
  - intros n z Hn. cbn in Hn. destruct Hn as [<-|[<-|[<-|[<-|[]]]]]; cbn; try lia.
    all: repeat (destruct (Nat.eq_dec _ _)); lia.
  - cbn; auto.
  - cbn; auto.
  - cbn. lia.
Qed.
