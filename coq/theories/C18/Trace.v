(** C18 — which field types may own a [Cc]; no `#[trace(skip)]` field of a `derive(Trace)`
    type in the regenerated inventory may.  Closed by computation over [trace_inventory].
    The classification by name is trusted: Rust types are given no semantics here. *)
From Coq Require Import List String Bool.
From JrV Require Import C18.TraceTy Gen.GenTrace.
Import ListNotations.
Open Scope string_scope.

Definition mem (s : string) (l : list string) : bool := existsb (String.eqb s) l.

(** never own what they point to *)
Definition non_owning : list string :=
  ["Weak"; "std::rc::Weak"; "PhantomData"; "std::marker::PhantomData"; "core::marker::PhantomData"].

(** external leaf types that contain no [Cc] whatever their arguments *)
Definition leaf_safe : list string :=
  ["bool"; "u8"; "u16"; "u32"; "u64"; "u128"; "usize"; "i8"; "i16"; "i32"; "i64"; "i128"; "isize";
   "f32"; "f64"; "char"; "str"; "String"; "PathBuf"; "Path"; "std::path::PathBuf"; "OsString";
   "IStr"; "IBytes"; "Span"; "Source"; "SourcePath"; "Visibility";
   "anyhow::Error"; "num_bigint::BigInt"; "std::fmt::Error"; "std::io::Error"].

(** own exactly what their arguments own *)
Definition transparent : list string :=
  ["Box"; "Rc"; "std::rc::Rc"; "Option"; "Vec"; "Cell"; "RefCell"; "Saturating"; "[]";
   "std::result::Result"; "std::cell::Cell"; "std::cell::RefCell"; "SmallVec"].

(** [own]: project types already known to own a [Cc]; [params]: type parameters of the
    definition inspected (accounted for at the use site).  A name neither listed nor in the
    inventory may own a [Cc] ([Cc] itself is one).  The order of the tests matters: [Weak<T>]. *)
Fixpoint may_own_in (names own params : list string) (t : ty) : bool :=
  match t with
  | TFn => false
  | TRef _ => false
  | TDyn _ => true
  | TOther _ => true
  | TTuple l => existsb (may_own_in names own params) l
  | TPath name args =>
    if mem name non_owning then false
    else if mem name leaf_safe then false
    else if mem name params then false
    else if mem name transparent then existsb (may_own_in names own params) args
    else if mem name names then mem name own || existsb (may_own_in names own params) args
    else true
  end.

Definition def_owns (names own : list string) (d : tydef) : bool :=
  existsb (fun fl => may_own_in names own (d_params d) (f_ty fl)) (d_fields d).

Definition own_step (inv : list tydef) (names own : list string) : list string :=
  map d_name (filter (def_owns names own) inv).

Fixpoint own_iter (n : nat) (inv : list tydef) (names own : list string) : list string :=
  match n with O => own | S k => own_iter k inv names (own_step inv names own) end.

(** an arbitrary cap: [check_with] tests that the iteration has settled *)
Definition rounds : nat := 24.
Definition inv_names (inv : list tydef) : list string := map d_name inv.
Definition owning (inv : list tydef) : list string := own_iter rounds inv (inv_names inv) [].
Definition stable_at (inv : list tydef) (own : list string) : bool :=
  forallb (fun n => mem n own) (own_step inv (inv_names inv) own).

Definition may_own_cc (inv : list tydef) (t : ty) : bool :=
  may_own_in (inv_names inv) (owning inv) [] t.

Definition skip_field_ok (inv : list tydef) (own : list string) (d : tydef) (fl : field) : bool :=
  negb (d_trace d && f_skip fl) || negb (may_own_in (inv_names inv) own [] (f_ty fl)).

Definition check_with (inv : list tydef) (own : list string) : bool :=
  stable_at inv own && forallb (fun d => forallb (skip_field_ok inv own d) (d_fields d)) inv.
Definition trace_complete_check (inv : list tydef) : bool :=
  let own := owning inv in check_with inv own.

Definition skipped_fields (inv : list tydef) : list (string * string) :=
  flat_map (fun d => if d_trace d
                     then map (fun fl => (d_name d, f_name fl)) (filter f_skip (d_fields d))
                     else []) inv.

Lemma trace_complete_of_check inv :
  trace_complete_check inv = true ->
  forall d fl, In d inv -> d_trace d = true -> In fl (d_fields d) -> f_skip fl = true ->
    may_own_cc inv (f_ty fl) = false.
Proof.
  intros H d fl Hd Ht Hf Hs. unfold trace_complete_check, check_with in H. cbv zeta in H.
  apply andb_true_iff in H. destruct H as [_ H]. unfold may_own_cc.
  rewrite forallb_forall in H. specialize (H d Hd). rewrite forallb_forall in H.
  specialize (H fl Hf). unfold skip_field_ok in H. rewrite Ht, Hs in H. cbn [andb negb orb] in H.
  destruct (may_own_in (inv_names inv) (owning inv) [] (f_ty fl)); [discriminate|reflexivity].
Qed.

Lemma own_iter_add a b inv names own :
  own_iter (a + b) inv names own = own_iter b inv names (own_iter a inv names own).
Proof. revert own. induction a as [|a IH]; intro own; [reflexivity|apply IH]. Qed.

Lemma own_iter_fixed n inv names own :
  own_step inv names own = own -> own_iter n inv names own = own.
Proof. intro H. induction n as [|n IH]; [reflexivity|]. cbn [own_iter]. rewrite H. exact IH. Qed.

(** evaluated once; statements about [trace_inventory] are rewritten to it first *)
Definition inventory_owning : list string := Eval vm_compute in owning trace_inventory.

Lemma inventory_owning_fixed :
  own_step trace_inventory (inv_names trace_inventory) inventory_owning = inventory_owning.
Proof. vm_compute. reflexivity. Qed.

Lemma owning_inventory : owning trace_inventory = inventory_owning.
Proof.
  (* this table settles in four rounds; if a regenerated one takes longer, all are run *)
  unfold owning.
  first [ change rounds with (4 + 20); rewrite own_iter_add;
          assert (own_iter 4 trace_inventory (inv_names trace_inventory) [] = inventory_owning)
            as -> by (vm_compute; reflexivity);
          apply own_iter_fixed, inventory_owning_fixed
        | vm_compute; reflexivity ].
Qed.

Lemma may_own_cc_inventory t :
  may_own_cc trace_inventory t = may_own_in (inv_names trace_inventory) inventory_owning [] t.
Proof. unfold may_own_cc. rewrite owning_inventory. reflexivity. Qed.

(** the obligation on the table regenerated from /repo *)
Lemma trace_inventory_checked : trace_complete_check trace_inventory = true.
Proof.
  unfold trace_complete_check, check_with, stable_at. cbv zeta.
  rewrite owning_inventory, inventory_owning_fixed. vm_compute. reflexivity.
Qed.

(** non-vacuity: skipped fields exist, and the object graph's types are classified owning *)
Example inventory_has_skips : Nat.leb 5 (List.length (skipped_fields trace_inventory)) = true.
Proof. vm_compute. reflexivity. Qed.
Example cc_may_own : may_own_cc trace_inventory (TPath "Cc" [TPath "ObjValueInner" []]) = true.
Proof. rewrite may_own_cc_inventory. vm_compute. reflexivity. Qed.
Example val_may_own : may_own_cc trace_inventory (TPath "Val" []) = true.
Proof. rewrite may_own_cc_inventory. vm_compute. reflexivity. Qed.
Example cache_may_own :
  may_own_cc trace_inventory
    (TPath "RefCell" [TPath "FxHashMap" [TTuple [TPath "IStr" []; TPath "CoreIdx" []]; TPath "CacheValue" []]]) = true.
Proof. rewrite may_own_cc_inventory. vm_compute. reflexivity. Qed.
Example weak_does_not : may_own_cc trace_inventory (TPath "Weak" [TPath "ObjValueInner" []]) = false.
Proof. rewrite may_own_cc_inventory. vm_compute. reflexivity. Qed.
