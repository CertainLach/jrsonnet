(** C18 — source tie: the functions translated from the interner's source (Gen.GenIntern) are
    the model's on every heap whose counts fit the 31-bit field, which every step keeps. *)
From Coq Require Import List NArith Lia.
From JrV Require Import C18.Model C18.Proofs C18.SourceVocab Gen.GenIntern C18.ModelSource.
Import ListNotations.

Local Arguments refcnt_lim : simpl never.

Lemma lim_eq : gen_refcnt_lim = refcnt_lim.
Proof. reflexivity. Qed.

Lemma fits_lookup h a al : rc_fits h -> lookup h a = Some al -> (a_rc al < refcnt_lim)%N.
Proof.
  intros F L. apply lookup_Some in L. destruct L as [I _].
  unfold rc_fits in F. rewrite Forall_forall in F. auto.
Qed.

Lemma upd_fits h a f :
  (forall x, (a_rc x < refcnt_lim)%N -> (a_rc (f x) < refcnt_lim)%N) -> rc_fits h -> rc_fits (upd h a f).
Proof. intros Hf F. unfold rc_fits in *. rewrite Forall_forall in F. apply Forall_upd; auto. Qed.

Lemma del_fits h a : rc_fits h -> rc_fits (del h a).
Proof. apply incl_Forall, incl_filter. Qed.

(** ** the model keeps the counts within the field *)
Lemma clone_fits h a h' : rc_fits h -> inner_clone h a = Some h' -> rc_fits h'.
Proof.
  unfold inner_clone. intros F. destruct (lookup h a) as [al|]; [|discriminate].
  destruct (N.leb_spec refcnt_lim (a_rc al + 1)); [discriminate|].
  intros E. injection E as <-. apply upd_fits; auto.
Qed.

Lemma drop_fits h a h' : rc_fits h -> inner_drop h a = Some h' -> rc_fits h'.
Proof.
  unfold inner_drop. intros F. destruct (lookup h a) as [al|] eqn:L; [|discriminate].
  pose proof (fits_lookup _ _ _ F L) as B.
  destruct (a_rc al =? 0)%N; [discriminate|].
  destruct (a_rc al - 1 =? 0)%N; intros E; injection E as <-.
  - apply del_fits; auto.
  - apply upd_fits; auto. intros x _. cbn. lia.
Qed.

Lemma unpool_fits h a h' : rc_fits h -> maybe_unpool h a = Some h' -> rc_fits h'.
Proof.
  unfold maybe_unpool. intros F. destruct (lookup h a) as [al|]; [|discriminate].
  destruct (a_rc al <=? 2)%N.
  - destruct (pool_find h (a_data al)) as [p|].
    + apply drop_fits. apply upd_fits; auto.
    + destruct (existsb a_pooled h); [discriminate|]. intros E; injection E as <-; auto.
  - intros E; injection E as <-; auto.
Qed.

Lemma handle_drop_fits h a h' : rc_fits h -> handle_drop h a = Some h' -> rc_fits h'.
Proof.
  unfold handle_drop. intros F. destruct (maybe_unpool h a) as [h1|] eqn:U; [|discriminate].
  apply drop_fits. eapply unpool_fits; eauto.
Qed.

Lemma reclone_fits h a h' : rc_fits h -> reclone h a = Some h' -> rc_fits h'.
Proof.
  unfold reclone. intros F. destruct (inner_clone h a) as [h1|] eqn:C; [|discriminate].
  apply handle_drop_fits. eapply clone_fits; eauto.
Qed.

Lemma intern_fits h n c h' n' a : rc_fits h -> intern_raw h n c = Some (h', n', a) -> rc_fits h'.
Proof.
  unfold intern_raw. intros F. destruct (pool_find h c) as [p|].
  - destruct (inner_clone h (a_addr p)) as [h1|] eqn:C; [|discriminate].
    intros E; injection E as <- <- <-. eapply clone_fits; eauto.
  - destruct (inner_clone _ n) as [h1|] eqn:C; [|discriminate].
    intros E; injection E as <- <- <-. eapply clone_fits; [|exact C].
    constructor; auto. cbn. reflexivity.
Qed.

Lemma with_heap_fits s r sl s' :
  (forall h', r = Some h' -> rc_fits h') -> with_heap s r sl = Some s' -> rc_fits (st_heap s').
Proof. unfold with_heap. destruct r; [|discriminate]. intros H E. injection E as <-. cbn. auto. Qed.

Lemma impl_step_fits s o s' : rc_fits (st_heap s) -> impl_step s o = Some s' -> rc_fits (st_heap s').
Proof.
  intros F. destruct o as [c|c|i|i|i|i|]; cbn [impl_step].
  - destruct (intern_raw _ _ c) as [[[h1 nx] a]|] eqn:I; [|discriminate].
    intros E; injection E as <-. cbn. eapply intern_fits; eauto.
  - destruct (valid_utf8 c); [|intros E; injection E as <-; auto].
    destruct (intern_raw _ _ c) as [[[h1 nx] a]|] eqn:I; [|discriminate].
    destruct (reclone _ a) as [h2|] eqn:R; [|discriminate].
    intros E; injection E as <-. cbn. eapply reclone_fits; [|exact R].
    apply upd_fits; auto. eapply intern_fits; eauto.
  - destruct (nth_error (st_slots s) i) as [[[k a]|]|]; try (intros E; injection E as <-; auto).
    apply with_heap_fits. intros h'. apply clone_fits; auto.
  - destruct (nth_error (st_slots s) i) as [[[k a]|]|]; try (intros E; injection E as <-; auto).
    apply with_heap_fits. intros h'. apply handle_drop_fits; auto.
  - destruct (nth_error (st_slots s) i) as [[[[|] a]|]|]; try (intros E; injection E as <-; auto).
    apply with_heap_fits. intros h'. apply reclone_fits; auto.
  - destruct (nth_error (st_slots s) i) as [[[[|] a]|]|]; try (intros E; injection E as <-; auto).
    destruct (lookup (st_heap s) a) as [al|]; [|discriminate].
    destruct (a_utf8 al); [apply with_heap_fits; intros h'; apply reclone_fits; auto|].
    destruct (valid_utf8 (a_data al)).
    + apply with_heap_fits; intros h'; apply reclone_fits. apply upd_fits; auto.
    + apply with_heap_fits; intros h'; apply handle_drop_fits; auto.
  - intros E; injection E as <-; auto.
Qed.

Lemma impl_run_fits ops : forall s s', rc_fits (st_heap s) -> impl_run s ops = Some s' -> rc_fits (st_heap s').
Proof.
  induction ops as [|o r IH]; intros s s' F; cbn [impl_run].
  - intros E; injection E as <-; exact F.
  - destruct (impl_step s o) as [s1|] eqn:E; [|discriminate]. apply IH. eapply impl_step_fits; eauto.
Qed.

(** ** the translated functions are the model's *)
Lemma src_clone_eq h a : gen_inner_clone h a = inner_clone h a.
Proof.
  unfold gen_inner_clone, inner_clone, hdr_refcnt, gen_set_refcnt, hdr_write_rc, bind.
  rewrite lim_eq. destruct (lookup h a) as [al|]; cbn; [|reflexivity].
  destruct (refcnt_lim <=? a_rc al + 1)%N; reflexivity.
Qed.

(* the translated drop re-runs [set_refcnt]'s assertion on the decremented count, the model
   does not: they differ beyond the 31-bit field *)
Lemma src_drop_eq h a : rc_fits h -> gen_inner_drop h a = inner_drop h a.
Proof.
  intros F.
  unfold gen_inner_drop, inner_drop, hdr_refcnt, gen_set_refcnt, hdr_write_rc, checked_sub, heap_free, bind.
  rewrite lim_eq. destruct (lookup h a) as [al|] eqn:L; cbn; [|reflexivity].
  pose proof (fits_lookup _ _ _ F L) as B.
  destruct (N.ltb_spec (a_rc al) 1) as [H1|H1]; destruct (N.eqb_spec (a_rc al) 0) as [H0|H0]; try lia; try reflexivity.
  cbn. destruct (N.leb_spec refcnt_lim (a_rc al - 1)) as [H2|H2]; [lia|].
  cbn. destruct (N.eqb_spec (a_rc al - 1) 0); [|reflexivity].
  f_equal. apply del_upd. auto with c18.
Qed.

Lemma src_strong_count_eq h a : gen_strong_count h a = option_map a_rc (lookup h a).
Proof. reflexivity. Qed.

Lemma src_maybe_unpool_eq h a : rc_fits h -> gen_maybe_unpool h a = maybe_unpool h a.
Proof.
  intros F.
  unfold gen_maybe_unpool, maybe_unpool, gen_strong_count, gen_unpool, hdr_refcnt, hdr_data, pool_remove,
    pool_is_empty, bind.
  destruct (lookup h a) as [al|] eqn:L; cbn; [|reflexivity].
  destruct (a_rc al <=? 2)%N; [|reflexivity].
  cbn.
  destruct (pool_find h (a_data al)) as [p|].
  - rewrite src_drop_eq.
    + destruct (inner_drop _ _); reflexivity.
    + apply upd_fits; auto.
  - destruct (existsb a_pooled h); reflexivity.
Qed.

Lemma src_handle_drop_eq k h a : rc_fits h -> gen_handle_drop k h a = handle_drop h a.
Proof.
  intros F. unfold handle_drop.
  destruct k; unfold gen_handle_drop, gen_handle_drop_str, gen_handle_drop_bytes, bind;
    rewrite src_maybe_unpool_eq by auto;
    (destruct (maybe_unpool h a) as [h1|] eqn:U; [|reflexivity]);
    apply src_drop_eq; eapply unpool_fits; eauto.
Qed.

Lemma src_handle_clone_eq k h a : gen_handle_clone k h a = inner_clone h a.
Proof. destruct k; apply src_clone_eq. Qed.

Lemma src_intern_eq h n c : gen_intern_bytes h n c = intern_raw h n c.
Proof.
  unfold gen_intern_bytes, intern_raw, pool_lookup, heap_alloc, bind.
  destruct (pool_find h c) as [p|]; cbn.
  - rewrite src_clone_eq. destruct (inner_clone h (a_addr p)); reflexivity.
  - rewrite src_clone_eq. reflexivity.
Qed.

Lemma src_reclone_eq k h a :
  rc_fits h -> bind (gen_inner_clone h a) (fun h1 => gen_handle_drop k h1 a) = reclone h a.
Proof.
  intros F. unfold reclone, bind. rewrite src_clone_eq.
  destruct (inner_clone h a) as [h1|] eqn:C; [|reflexivity].
  apply src_handle_drop_eq. eapply clone_fits; eauto.
Qed.

Lemma src_cast_bytes_eq h a : rc_fits h -> gen_cast_bytes h a = reclone h a.
Proof. intros F. apply (src_reclone_eq KStr); auto. Qed.

Lemma src_cast_str_unchecked_eq h a : rc_fits h -> gen_cast_str_unchecked h a = reclone (upd h a set_utf8) a.
Proof.
  intros F. unfold gen_cast_str_unchecked, gen_assume_utf8, gen_set_is_utf8, hdr_write_utf8. cbn [bind].
  apply (src_reclone_eq KBytes). apply upd_fits; auto.
Qed.

Lemma src_intern_str_eq h n c : rc_fits h ->
  gen_intern_str h n c =
  match intern_raw h n c with
  | Some (h1, nx, a) => match reclone (upd h1 a set_utf8) a with Some h2 => Some (h2, nx, a) | None => None end
  | None => None
  end.
Proof.
  intros F. unfold gen_intern_str. rewrite src_intern_eq.
  destruct (intern_raw h n c) as [[[h1 nx] a]|] eqn:I; cbn [bind fst snd]; [|reflexivity].
  rewrite src_cast_str_unchecked_eq by (eapply intern_fits; eauto).
  destruct (reclone _ a); reflexivity.
Qed.

Lemma src_cast_str_eq h a : rc_fits h ->
  gen_cast_str h a =
  match lookup h a with
  | None => None
  | Some al =>
    if a_utf8 al then option_map (fun x => (x, true)) (reclone h a)
    else if valid_utf8 (a_data al) then option_map (fun x => (x, true)) (reclone (upd h a set_utf8) a)
    else option_map (fun x => (x, false)) (handle_drop h a)
  end.
Proof.
  intros F. unfold gen_cast_str, gen_check_utf8, hdr_is_utf8, hdr_data, gen_set_is_utf8, hdr_write_utf8.
  destruct (lookup h a) as [al|] eqn:L; cbn; [|reflexivity].
  destruct (a_utf8 al); cbn.
  - rewrite (src_reclone_eq KBytes) by auto. destruct (reclone h a); reflexivity.
  - destruct (valid_utf8 (a_data al)); cbn.
    + rewrite (src_reclone_eq KBytes) by (apply upd_fits; auto). destruct (reclone _ a); reflexivity.
    + change gen_handle_drop_bytes with (gen_handle_drop KBytes). rewrite src_handle_drop_eq by auto.
      destruct (handle_drop h a); reflexivity.
Qed.

(** ** the assembled machine *)
Lemma src_step_eq s o : rc_fits (st_heap s) -> src_step s o = impl_step s o.
Proof.
  intros F. destruct o as [c|c|i|i|i|i|]; cbn [src_step impl_step].
  - rewrite src_intern_eq. reflexivity.
  - destruct (valid_utf8 c); [|reflexivity]. rewrite src_intern_str_eq by auto.
    destruct (intern_raw _ _ c) as [[[h1 nx] a]|]; [|reflexivity].
    destruct (reclone _ a); reflexivity.
  - destruct (nth_error (st_slots s) i) as [[[k a]|]|]; try reflexivity.
    rewrite src_handle_clone_eq. reflexivity.
  - destruct (nth_error (st_slots s) i) as [[[k a]|]|]; try reflexivity.
    rewrite src_handle_drop_eq by auto. reflexivity.
  - destruct (nth_error (st_slots s) i) as [[[[|] a]|]|]; try reflexivity.
    rewrite src_cast_bytes_eq by auto. reflexivity.
  - destruct (nth_error (st_slots s) i) as [[[[|] a]|]|]; try reflexivity.
    rewrite src_cast_str_eq by auto.
    destruct (lookup (st_heap s) a) as [al|]; [|reflexivity].
    destruct (a_utf8 al); [destruct (reclone _ a); reflexivity|].
    destruct (valid_utf8 (a_data al)); [destruct (reclone _ a); reflexivity|].
    destruct (handle_drop _ a); reflexivity.
  - reflexivity.
Qed.

Lemma src_run_eq_from s ops : rc_fits (st_heap s) -> src_run s ops = impl_run s ops.
Proof.
  revert s. induction ops as [|o r IH]; intros s F; cbn; [reflexivity|].
  rewrite src_step_eq by auto.
  destruct (impl_step s o) as [s'|] eqn:E; [|reflexivity].
  apply IH. eapply impl_step_fits; eauto.
Qed.

Lemma src_run_eq ops : src_run init ops = impl_run init ops.
Proof. apply src_run_eq_from. constructor. Qed.
