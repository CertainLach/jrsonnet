(** C18 — source tie, property theorems.  [gen_*]: the functions of
    crates/jrsonnet-interner/src/{inner,lib}.rs translated on every run (Gen/GenIntern.v);
    [src_step]/[src_run]: the machine assembled from them (ModelSource.v); [rc_fits h]: every
    count fits the 31-bit field it is stored in (kept by every step: C18_source_counts_fit). *)
From Coq Require Import List NArith Bool Arith.
From JrV Require Import C18.Model C18.Proofs C18.Properties C18.SourceVocab Gen.GenIntern C18.ModelSource C18.ProofsSource.
Import ListNotations.

(** Inner::clone as written = the model's: count read, `+ 1`, set_refcnt with its assertion. *)
Theorem C18_model_is_translated_source_clone :
  forall h a, gen_inner_clone h a = inner_clone h a.
Proof. exact src_clone_eq. Qed.
Print Assumptions C18_model_is_translated_source_clone.

(** Drop for Inner as written (checked `- 1`, store, `== 0` -> dealloc) = the model's. *)
Theorem C18_model_is_translated_source_drop :
  forall h a, rc_fits h -> gen_inner_drop h a = inner_drop h a.
Proof. exact src_drop_eq. Qed.
Print Assumptions C18_model_is_translated_source_drop.

(** maybe_unpool as written (strong_count `<= 2`, pool.remove, the is_empty assertion) = the model's. *)
Theorem C18_model_is_translated_source_unpool :
  forall h a, rc_fits h -> gen_maybe_unpool h a = maybe_unpool h a.
Proof. exact src_maybe_unpool_eq. Qed.
Print Assumptions C18_model_is_translated_source_unpool.

(** Drop for IStr / IBytes (maybe_unpool, then the field's drop) = the model's handle_drop. *)
Theorem C18_model_is_translated_source_handle_drop :
  forall k h a, rc_fits h -> gen_handle_drop k h a = handle_drop h a.
Proof. exact src_handle_drop_eq. Qed.
Print Assumptions C18_model_is_translated_source_handle_drop.

(** intern_bytes as written (Occupied: clone the pooled key; Vacant: insert with count 1, flag
    off, and clone) = the model's intern_raw. *)
Theorem C18_model_is_translated_source_intern :
  forall h next c, gen_intern_bytes h next c = intern_raw h next c.
Proof. exact src_intern_eq. Qed.
Print Assumptions C18_model_is_translated_source_intern.

(** For ALL states and operations: translated step = hand model step. *)
Theorem C18_model_is_translated_source_step :
  forall s o, rc_fits (st_heap s) -> src_step s o = impl_step s o.
Proof. exact src_step_eq. Qed.
Print Assumptions C18_model_is_translated_source_step.

(** ... and over ALL operation histories from the empty pool, crash for crash. *)
Theorem C18_model_is_translated_source_run :
  forall ops, src_run init ops = impl_run init ops.
Proof. exact src_run_eq. Qed.
Print Assumptions C18_model_is_translated_source_run.

(** the side condition is an invariant of the translated machine *)
Theorem C18_source_counts_fit :
  forall ops s, src_run init ops = Some s -> rc_fits (st_heap s).
Proof. intros ops s. rewrite src_run_eq. apply impl_run_fits. constructor. Qed.
Print Assumptions C18_source_counts_fit.

(** Corollaries: the TRANSLATED machine satisfies the C18 invariants over all histories. *)
Theorem C18_source_refines :
  forall ops, short ops -> exists s, src_run init ops = Some s /\ abs s = spec_run ops.
Proof. intros ops H. rewrite src_run_eq. exact (C18_intern_refines ops H). Qed.
Print Assumptions C18_source_refines.

Theorem C18_source_canonical :
  forall ops s i j, short ops -> src_run init ops = Some s ->
    impl_eq s i j = spec_eq (spec_run ops) i j.
Proof. intros ops s i j H R. rewrite src_run_eq in R. exact (C18_eq_iff_content ops s i j H R). Qed.
Print Assumptions C18_source_canonical.

Theorem C18_source_pool_is_live_contents :
  forall ops s, short ops -> src_run init ops = Some s ->
    pool_len s = spec_pool_len (spec_run ops) /\ length (st_heap s) = pool_len s.
Proof. intros ops s H R. rewrite src_run_eq in R. exact (C18_pool_is_live_contents ops s H R). Qed.
Print Assumptions C18_source_pool_is_live_contents.

Theorem C18_source_no_free_while_handle :
  forall ops s, short ops -> src_run init ops = Some s ->
    (forall al, In al (st_heap s) ->
       a_rc al = (1 + N.of_nat (handles_on s (a_addr al)))%N /\ (1 <= handles_on s (a_addr al))%nat) /\
    (forall i k a, nth_error (st_slots s) i = Some (Some (k, a)) ->
       exists al, lookup (st_heap s) a = Some al).
Proof. intros ops s H R. rewrite src_run_eq in R. exact (C18_refcount_exact ops s H R). Qed.
Print Assumptions C18_source_no_free_while_handle.

Theorem C18_source_pool_drains :
  forall ops s, short ops -> src_run init ops = Some s ->
    (forall o, In o (st_slots s) -> o = None) -> st_heap s = [] /\ pool_len s = 0%nat.
Proof. intros ops s H R. rewrite src_run_eq in R. exact (C18_pool_drains ops s H R). Qed.
Print Assumptions C18_source_pool_drains.

(** Non-vacuity: a history with a re-intern after a drop, casts and clones, on the translated machine. *)
Definition nv_ops : list op :=
  [OInternBytes [97%N]; OInternStr [97%N]; ODrop 0; ODrop 1; OInternBytes [97%N]; OClone 2;
   OCastStr 2; OInternBytes [255%N]; OCastStr 4; OCastBytes 2].
Example nv_short : short nv_ops.
Proof. vm_compute. reflexivity. Qed.
Example nv_runs :
  option_map (fun s => (pool_len s, map a_rc (st_heap s), st_slots s)) (src_run init nv_ops)
  = Some (1%nat, [3%N], [None; None; Some (KBytes, 1%N); Some (KBytes, 1%N); None]).
Proof. vm_compute. reflexivity. Qed.
Example nv_fits : rc_fits [mkAlloc 0 [97%N] 2 false true].
Proof. repeat constructor. Qed.
Example nv_drop_frees : gen_handle_drop KBytes [mkAlloc 0 [97%N] 2 false true] 0 = Some [].
Proof. vm_compute. reflexivity. Qed.
Example nv_drop_keeps : gen_handle_drop KBytes [mkAlloc 0 [97%N] 3 false true] 0 = Some [mkAlloc 0 [97%N] 2 false true].
Proof. vm_compute. reflexivity. Qed.
