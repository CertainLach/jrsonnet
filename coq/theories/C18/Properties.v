(** C18 — property theorems.  Interner: histories of intern / clone / drop / cast / hand-over;
    collector: Trace inventory and the collection criterion.  The statements are pinned again
    in Pins.v. *)
From Coq Require Import List NArith Bool Arith Lia.
From JrV Require Import C18.Model C18.Proofs C18.TraceTy Gen.GenTrace C18.Trace C18.Collect.
Import ListNotations.

(** Every history shorter than the 31-bit counter allows runs without a crash (use after
    free, refcount underflow or overflow, the issue-113 assertion), and the live handles
    dereference to what the specification says. *)
Theorem C18_intern_refines :
  forall ops, short ops -> exists s, impl_run init ops = Some s /\ abs s = spec_run ops.
Proof.
  intros ops B. destruct (run_ok ops init SInv_init) as (s & E & _ & A); [exact B|]. eauto.
Qed.
Print Assumptions C18_intern_refines.

(** In particular no step hits a model crash. *)
Theorem C18_refcount_no_underflow :
  forall ops, short ops -> impl_run init ops <> None.
Proof. intros ops B. destruct (C18_intern_refines ops B) as (s & E & _). congruence. Qed.
Print Assumptions C18_refcount_no_underflow.

(** Pointer equality of two live handles (IStr or IBytes, also across casts) is content equality. *)
Theorem C18_eq_iff_content :
  forall ops s i j, short ops -> impl_run init ops = Some s ->
    impl_eq s i j = spec_eq (spec_run ops) i j.
Proof. intros ops s i j B E. destruct (reach ops s B E) as [SI <-]. exact (eq_iff_content_inv s i j SI). Qed.
Print Assumptions C18_eq_iff_content.

(** The pool holds one entry per distinct live content; nothing is allocated outside it. *)
Theorem C18_pool_is_live_contents :
  forall ops s, short ops -> impl_run init ops = Some s ->
    pool_len s = spec_pool_len (spec_run ops) /\ length (st_heap s) = pool_len s.
Proof. exact pool_is_live_contents. Qed.
Print Assumptions C18_pool_is_live_contents.

(** Once every handle is dropped the heap, and with it the pool, is empty. *)
Theorem C18_pool_drains :
  forall ops s, short ops -> impl_run init ops = Some s ->
    (forall o, In o (st_slots s) -> o = None) -> st_heap s = [] /\ pool_len s = 0%nat.
Proof. exact pool_drains. Qed.
Print Assumptions C18_pool_drains.

(** The cached flag is only set on well-formed UTF-8, and every IStr dereferences to
    well-formed UTF-8 (what `as_str_unchecked` relies on). *)
Theorem C18_utf8_flag_sound :
  forall ops s, short ops -> impl_run init ops = Some s ->
    (forall al, In al (st_heap s) -> a_utf8 al = true -> valid_utf8 (a_data al) = true) /\
    (forall i a, nth_error (st_slots s) i = Some (Some (KStr, a)) ->
       valid_utf8 (data_of (st_heap s) a) = true).
Proof. intros ops s B E. exact (utf8_sound_inv s (proj1 (reach ops s B E))). Qed.
Print Assumptions C18_utf8_flag_sound.

(** count = 1 (the pool's reference) + live handles; every live handle points at a live allocation. *)
Theorem C18_refcount_exact :
  forall ops s, short ops -> impl_run init ops = Some s ->
    (forall al, In al (st_heap s) ->
       a_rc al = (1 + N.of_nat (handles_on s (a_addr al)))%N /\ (1 <= handles_on s (a_addr al))%nat) /\
    (forall i k a, nth_error (st_slots s) i = Some (Some (k, a)) ->
       exists al, lookup (st_heap s) a = Some al).
Proof. intros ops s B E. exact (refcount_inv s (proj1 (reach ops s B E))). Qed.
Print Assumptions C18_refcount_exact.

(** A live value keeps its bytes through every step that does not consume it. *)
Theorem C18_live_keep_content :
  forall ops o s s', short (ops ++ [o]) -> impl_run init ops = Some s -> impl_step s o = Some s' ->
    forall i k c, nth_error (abs s) i = Some (Some (k, c)) ->
      nth_error (abs s') i = Some None \/ exists k', nth_error (abs s') i = Some (Some (k', c)).
Proof.
  intros ops o s s' B E1 E2. unfold short in B. rewrite app_length in B. cbn [length] in B.
  destruct (reach ops s) as (SI & A); [unfold short; lia|exact E1|].
  assert (H : small s).
  { unfold small. pose proof (spec_run_length ops) as L. rewrite <- A, abs_length in L. lia. }
  apply (step_ok s o SI) in H. unfold refines_step in H. rewrite E2 in H. destruct H as [_ ->]. apply spec_content_kept.
Qed.
Print Assumptions C18_live_keep_content.

(** * Collector *)

(** On the inventory regenerated from crates/jrsonnet-evaluator (bound = that table), no
    `#[trace(skip)]` field of a `derive(Trace)` type may own a `Cc`. *)
Theorem C18_trace_complete :
  forall d fl, In d trace_inventory -> d_trace d = true -> In fl (d_fields d) -> f_skip fl = true ->
    may_own_cc trace_inventory (f_ty fl) = false.
Proof. exact (trace_complete_of_check trace_inventory trace_inventory_checked). Qed.
Print Assumptions C18_trace_complete.

(** If the traced edges are the owning edges, exactly the unreachable objects are released:
    every garbage cycle goes, nothing reachable does. *)
Theorem C18_collect_reclaims :
  forall (node : Type) (node_eq_dec : forall a b : node, {a = b} + {a <> b})
         (nodes : list node) (owns traced : node -> list node) (ext : node -> nat),
    (forall n y, In n nodes -> In y (owns n) -> In y nodes) ->
    (forall n, In n nodes -> traced n = owns n) ->
    forall x, In x nodes ->
      (collected node node_eq_dec nodes owns traced ext x <-> ~ reachable node nodes owns ext x).
Proof. exact collect_reclaims. Qed.
Print Assumptions C18_collect_reclaims.

(** Reporting fewer edges than are owned never releases a reachable object ... *)
Theorem C18_collect_safe :
  forall (node : Type) (node_eq_dec : forall a b : node, {a = b} + {a <> b})
         (nodes : list node) (owns traced : node -> list node) (ext : node -> nat),
    (forall n y, In n nodes -> In y (owns n) -> In y nodes) ->
    (forall n z, In n nodes -> count_occ node_eq_dec (traced n) z <= count_occ node_eq_dec (owns n) z) ->
    forall x, reachable node nodes owns ext x -> marked node node_eq_dec nodes owns traced ext x.
Proof. exact collect_safe. Qed.
Print Assumptions C18_collect_safe.

(** ... but the target of an untraced owning edge stays marked for ever: a cycle through a
    skipped owning field is never reclaimed, hence C18_trace_complete. *)
Theorem C18_skipped_edge_leaks :
  forall (node : Type) (node_eq_dec : forall a b : node, {a = b} + {a <> b})
         (nodes : list node) (owns traced : node -> list node) (ext : node -> nat),
    (forall n z, In n nodes -> count_occ node_eq_dec (traced n) z <= count_occ node_eq_dec (owns n) z) ->
    forall x y, In x nodes -> In y nodes ->
      count_occ node_eq_dec (traced x) y < count_occ node_eq_dec (owns x) y ->
      marked node node_eq_dec nodes owns traced ext y.
Proof. exact skipped_edge_leaks. Qed.
Print Assumptions C18_skipped_edge_leaks.
