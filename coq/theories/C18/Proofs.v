(** C18 — the interner: a heap change keeps the invariant and the content of live handles ([evolves]); one
    lemma per operation says it refines its specification ([refines_step]); histories by [run_ok], [reach]. *)
From Coq Require Import List NArith Bool Arith Lia Permutation.
From JrV Require Import C18.Model.
Import ListNotations.

(** * Handle counts *)
Definition bump (c : N -> nat) (a : N) : N -> nat := fun x => if N.eq_dec x a then S (c x) else c x.
Definition unbump (c : N -> nat) (a : N) : N -> nat := fun x => if N.eq_dec x a then pred (c x) else c x.

Lemma bump_same c a : bump c a a = S (c a).
Proof. unfold bump. destruct (N.eq_dec a a); [reflexivity|contradiction]. Qed.

Lemma bump_other c a x : x <> a -> bump c a x = c x.
Proof. unfold bump. destruct (N.eq_dec x a); [contradiction|reflexivity]. Qed.

Lemma bump_pos c a x : (0 < c a)%nat -> (0 < bump c a x)%nat -> (0 < c x)%nat.
Proof. unfold bump. destruct (N.eq_dec x a); subst; auto. Qed.

Lemma unbump_same c a : unbump c a a = pred (c a).
Proof. unfold unbump. destruct (N.eq_dec a a); [reflexivity|contradiction]. Qed.

Lemma unbump_other c a x : x <> a -> unbump c a x = c x.
Proof. unfold unbump. destruct (N.eq_dec x a); [contradiction|reflexivity]. Qed.

Lemma unbump_pos c a x : (0 < unbump c a x)%nat -> (0 < c x)%nat.
Proof. unfold unbump. destruct (N.eq_dec x a); lia. Qed.

Lemma bump_unbump c a x : unbump (bump c a) a x = c x.
Proof. unfold unbump, bump. destruct (N.eq_dec x a); reflexivity. Qed.

(** * The invariant on the heap, relative to a handle-count function
    Every allocation is pooled (unpooled ones exist only inside [handle_drop], hence pool
    size = heap size), counts the pool's reference + its handles, and has a handle. *)
Definition alloc_ok (c : N -> nat) (al : alloc) : Prop :=
  a_pooled al = true /\
  a_rc al = (1 + N.of_nat (c (a_addr al)))%N /\
  (1 <= c (a_addr al))%nat /\
  (a_utf8 al = true -> valid_utf8 (a_data al) = true).

Definition Inv (h : heap) (c : N -> nat) : Prop :=
  NoDup (map a_addr h) /\ NoDup (map a_data h) /\ Forall (alloc_ok c) h /\
  (forall a, (0 < c a)%nat -> In a (map a_addr h)).

Lemma alloc_ok_ext c c' al : c' (a_addr al) = c (a_addr al) -> alloc_ok c al -> alloc_ok c' al.
Proof. unfold alloc_ok. intros ->. auto. Qed.

Lemma Inv_ext h c c' : (forall x, c x = c' x) -> Inv h c -> Inv h c'.
Proof.
  intros E (A & B & C & D). repeat split; auto.
  - eapply Forall_impl; [|exact C]. intros al. apply alloc_ok_ext. symmetry. apply E.
  - intros a Ha. apply D. rewrite E. exact Ha.
Qed.

Lemma Inv_alloc_ok h c al : Inv h c -> In al h -> alloc_ok c al.
Proof. intros (_ & _ & C & _). rewrite Forall_forall in C. apply C. Qed.

Ltac sim := cbn [a_rc a_addr a_data a_utf8 a_pooled set_rc set_utf8 set_unpooled].

(** * lookup / upd / del *)
Lemma lookup_Some h a al : lookup h a = Some al -> In al h /\ a_addr al = a.
Proof.
  unfold lookup. intros H. apply find_some in H. destruct H as [H1 H2].
  apply N.eqb_eq in H2. auto.
Qed.

Lemma NoDup_map_inj {A B} (g : A -> B) l x y :
  NoDup (map g l) -> In x l -> In y l -> g x = g y -> x = y.
Proof.
  induction l as [|z l IH]; intros ND Hx Hy E; [contradiction|].
  cbn [map] in ND. inversion ND; subst. destruct Hx as [->|Hx], Hy as [->|Hy]; auto.
  - exfalso. apply H1. rewrite E. apply in_map. exact Hy.
  - exfalso. apply H1. rewrite <- E. apply in_map. exact Hx.
Qed.

Lemma find_unique {A} (p : A -> bool) l x :
  In x l -> p x = true -> (forall y, In y l -> p y = true -> y = x) -> find p l = Some x.
Proof.
  induction l as [|z l IH]; intros HI Px U; [contradiction|]. cbn [find].
  destruct (p z) eqn:Pz.
  - f_equal. apply U; [left; reflexivity|exact Pz].
  - destruct HI as [->|HI]; [congruence|]. apply IH; auto. intros y Hy. apply U. right. exact Hy.
Qed.

Lemma lookup_In h al : NoDup (map a_addr h) -> In al h -> lookup h (a_addr al) = Some al.
Proof.
  intros ND HI. apply find_unique; [exact HI|apply N.eqb_refl|].
  intros y Hy E. apply N.eqb_eq in E. exact (NoDup_map_inj a_addr h y al ND Hy HI E).
Qed.

Lemma lookup_None h a : lookup h a = None -> ~ In a (map a_addr h).
Proof.
  unfold lookup. intros H HI. apply in_map_iff in HI. destruct HI as (al & E & HI).
  eapply find_none in H; [|exact HI]. cbn in H. rewrite E, N.eqb_refl in H. discriminate.
Qed.

Lemma lookup_ex h a : In a (map a_addr h) -> exists al, lookup h a = Some al.
Proof.
  intros HI. destruct (lookup h a) eqn:E; eauto. apply lookup_None in E. contradiction.
Qed.

Lemma Inv_lookup h c a : Inv h c -> (0 < c a)%nat ->
  exists al, lookup h a = Some al /\ In al h /\ a_addr al = a /\ alloc_ok c al.
Proof.
  intros I Ha. destruct (lookup_ex h a) as [al E]. { destruct I as (_ & _ & _ & D). auto. }
  exists al. destruct (lookup_Some _ _ _ E) as [HI HA]. eauto using Inv_alloc_ok.
Qed.

Definition keeps_addr (f : alloc -> alloc) : Prop := forall al, a_addr (f al) = a_addr al.
Definition keeps_data (f : alloc -> alloc) : Prop := forall al, a_data (f al) = a_data al.

Lemma keeps_addr_set_rc n : keeps_addr (set_rc n). Proof. intros al; reflexivity. Qed.
Lemma keeps_addr_set_utf8 : keeps_addr set_utf8. Proof. intros al; reflexivity. Qed.
Lemma keeps_addr_set_unpooled : keeps_addr set_unpooled. Proof. intros al; reflexivity. Qed.
Lemma keeps_data_set_rc n : keeps_data (set_rc n). Proof. intros al; reflexivity. Qed.
Lemma keeps_data_set_utf8 : keeps_data set_utf8. Proof. intros al; reflexivity. Qed.
Lemma keeps_data_set_unpooled : keeps_data set_unpooled. Proof. intros al; reflexivity. Qed.
#[global] Hint Resolve keeps_addr_set_rc keeps_addr_set_utf8 keeps_addr_set_unpooled
  keeps_data_set_rc keeps_data_set_utf8 keeps_data_set_unpooled : c18.

Lemma upd_map {B} (g : alloc -> B) h a f : (forall al, g (f al) = g al) -> map g (upd h a f) = map g h.
Proof.
  intros K. unfold upd. rewrite map_map. apply map_ext. intros x.
  destruct (a_addr x =? a)%N; auto.
Qed.

Lemma lookup_upd h a f x :
  keeps_addr f ->
  lookup (upd h a f) x = if (x =? a)%N then option_map f (lookup h x) else lookup h x.
Proof.
  intros K. unfold lookup, upd. induction h as [|y h IH]; cbn [map find].
  - destruct (x =? a)%N; reflexivity.
  - destruct (N.eqb_spec (a_addr y) a) as [E|E].
    + rewrite K. destruct (N.eqb_spec (a_addr y) x) as [E2|E2].
      * subst. rewrite N.eqb_refl. reflexivity.
      * rewrite IH. reflexivity.
    + destruct (N.eqb_spec (a_addr y) x) as [E2|E2].
      * subst. destruct (N.eqb_spec (a_addr y) a); [contradiction|reflexivity].
      * exact IH.
Qed.

Lemma lookup_upd_same h a f al :
  keeps_addr f -> lookup h a = Some al -> lookup (upd h a f) a = Some (f al).
Proof. intros K L. rewrite lookup_upd, N.eqb_refl, L by exact K. reflexivity. Qed.

Lemma upd_notin h a f : ~ In a (map a_addr h) -> upd h a f = h.
Proof.
  unfold upd. induction h as [|y h IH]; intros NI; cbn [map]; [reflexivity|].
  cbn [map In] in NI. destruct (N.eqb_spec (a_addr y) a) as [E|E].
  - exfalso. apply NI. auto.
  - rewrite IH; auto.
Qed.

Lemma Forall_upd (P : alloc -> Prop) h a f :
  (forall al, In al h -> a_addr al <> a -> P al) ->
  (forall al, In al h -> a_addr al = a -> P (f al)) -> Forall P (upd h a f).
Proof.
  intros F HP. unfold upd. apply Forall_forall. intros y Hy.
  apply in_map_iff in Hy. destruct Hy as (x & E & Hx).
  destruct (N.eqb_spec (a_addr x) a); subst; auto.
Qed.

Lemma NoDup_map_filter {A B} (g : A -> B) p (l : list A) :
  NoDup (map g l) -> NoDup (map g (filter p l)).
Proof.
  induction l as [|x l IH]; cbn [map filter]; intros ND; [constructor|].
  inversion ND; subst. destruct (p x); cbn [map]; auto.
  constructor; auto. intros HI. apply H1. apply in_map_iff in HI.
  destruct HI as (y & E & Hy). apply filter_In in Hy. rewrite <- E. apply in_map. tauto.
Qed.

Lemma In_del h a al : In al (del h a) <-> In al h /\ a_addr al <> a.
Proof. unfold del. rewrite filter_In, negb_true_iff, N.eqb_neq. reflexivity. Qed.

Lemma lookup_del h a x : lookup (del h a) x = if (x =? a)%N then None else lookup h x.
Proof.
  unfold lookup, del. induction h as [|y h IH]; cbn [filter find].
  - destruct (x =? a)%N; reflexivity.
  - destruct (N.eqb_spec (a_addr y) a) as [E|E]; cbn [negb find].
    + rewrite IH. destruct (N.eqb_spec x a) as [E2|E2]; [reflexivity|].
      destruct (N.eqb_spec (a_addr y) x); [congruence|reflexivity].
    + destruct (N.eqb_spec (a_addr y) x) as [E2|E2].
      * subst. destruct (N.eqb_spec (a_addr y) a); [contradiction|reflexivity].
      * exact IH.
Qed.

Lemma del_upd h a f : keeps_addr f -> del (upd h a f) a = del h a.
Proof.
  intros K. unfold del, upd. induction h as [|y h IH]; cbn [map filter]; [reflexivity|].
  destruct (N.eqb_spec (a_addr y) a) as [E|E].
  - rewrite K. destruct (N.eqb_spec (a_addr y) a); [|contradiction]. cbn [negb]. exact IH.
  - destruct (N.eqb_spec (a_addr y) a); [contradiction|]. cbn [negb]. rewrite IH. reflexivity.
Qed.

Lemma bytes_eqb_eq a b : bytes_eqb a b = true <-> a = b.
Proof.
  split; [apply bytes_eqb_true|]. intros ->. destruct (bytes_eqb b b) eqn:E; auto.
  exfalso. eapply bytes_eqb_false; eauto.
Qed.

Lemma pool_find_Some h c p : pool_find h c = Some p -> In p h /\ a_data p = c /\ a_pooled p = true.
Proof.
  unfold pool_find. intros H. apply find_some in H. destruct H as [H1 H2].
  apply andb_true_iff in H2. destruct H2 as [H2 H3]. apply bytes_eqb_eq in H3. auto.
Qed.

Lemma pool_find_None h c :
  Forall (fun al => a_pooled al = true) h -> pool_find h c = None -> ~ In c (map a_data h).
Proof.
  unfold pool_find. intros F H HI. apply in_map_iff in HI. destruct HI as (al & E & HI).
  eapply find_none in H; [|exact HI]. cbn in H. rewrite Forall_forall in F.
  rewrite (F _ HI) in H. cbn in H. apply not_true_iff_false in H. apply H. apply bytes_eqb_eq. auto.
Qed.

Lemma pool_find_In h al :
  NoDup (map a_data h) -> In al h -> a_pooled al = true -> pool_find h (a_data al) = Some al.
Proof.
  intros ND HI HP. apply find_unique; [exact HI|rewrite HP; apply bytes_eqb_eq; reflexivity|].
  intros y Hy E. apply andb_true_iff in E. destruct E as [_ E]. apply bytes_eqb_eq in E.
  exact (NoDup_map_inj a_data h y al ND Hy HI E).
Qed.

(** * What a step keeps for an address *)
Definition keeps (h h' : heap) (x : N) : Prop :=
  exists al al', lookup h x = Some al /\ lookup h' x = Some al' /\
                 a_data al' = a_data al /\ (a_utf8 al = true -> a_utf8 al' = true).

Lemma keeps_refl h x : In x (map a_addr h) -> keeps h h x.
Proof. intros HI. apply lookup_ex in HI. destruct HI as [al E]. exists al, al. auto. Qed.

Lemma keeps_trans h1 h2 h3 x : keeps h1 h2 x -> keeps h2 h3 x -> keeps h1 h3 x.
Proof.
  intros (a & b & E1 & E2 & D & U) (b' & c & E3 & E4 & D' & U').
  rewrite E2 in E3. inversion E3; subst. exists a, c. repeat split; auto; congruence.
Qed.

Lemma keeps_upd h a f x :
  keeps_addr f -> keeps_data f -> (forall al, a_utf8 al = true -> a_utf8 (f al) = true) ->
  In x (map a_addr h) -> keeps h (upd h a f) x.
Proof.
  intros KA KD KU HI. apply lookup_ex in HI. destruct HI as [al E].
  destruct (N.eqb_spec x a) as [EQ|NE].
  - exists al, (f al). rewrite lookup_upd by auto. rewrite E.
    destruct (N.eqb_spec x a); [|contradiction]. cbn. repeat split; auto.
  - exists al, al. rewrite lookup_upd by auto.
    destruct (N.eqb_spec x a); [contradiction|]. repeat split; auto.
Qed.

Lemma keeps_data_of h h' x : keeps h h' x -> data_of h' x = data_of h x.
Proof. intros (al & al' & E1 & E2 & D & _). unfold data_of. rewrite E1, E2. exact D. Qed.

Definition flagged (h : heap) (a : N) : Prop := exists al, lookup h a = Some al /\ a_utf8 al = true.

Lemma keeps_flagged h h' a : keeps h h' a -> flagged h a -> flagged h' a.
Proof.
  intros (b & b' & E1 & E2 & _ & KU) (al & E & U). exists b'. split; [exact E2|].
  apply KU. congruence.
Qed.

(** * Heap operations
    [evolves h c h' c']: heap and counts before and after; what has handles throughout is kept *)
Definition evolves (h : heap) (c : N -> nat) (h' : heap) (c' : N -> nat) : Prop :=
  Inv h' c' /\ forall x, (0 < c x)%nat -> (0 < c' x)%nat -> keeps h h' x.

Lemma evolves_ext h c h' c' c'' : (forall x, c' x = c'' x) -> evolves h c h' c' -> evolves h c h' c''.
Proof. intros E [I K]. split; [exact (Inv_ext _ _ _ E I)|]. intros x Hx Hx'. apply K; [|rewrite E]; auto. Qed.

Lemma evolves_trans h1 c1 h2 c2 h3 c3 :
  evolves h1 c1 h2 c2 -> evolves h2 c2 h3 c3 ->
  (forall x, (0 < c1 x)%nat -> (0 < c3 x)%nat -> (0 < c2 x)%nat) -> evolves h1 c1 h3 c3.
Proof. intros [_ K] [I K'] M. split; [exact I|]. intros x H1 H3. eapply keeps_trans; eauto. Qed.

Definition fresh (h : heap) (next : N) : Prop := Forall (fun al => (a_addr al < next)%N) h.

Lemma fresh_notin h next : fresh h next -> ~ In next (map a_addr h).
Proof.
  intros F HI. apply in_map_iff in HI. destruct HI as (al & E & HI).
  unfold fresh in F. rewrite Forall_forall in F. specialize (F al HI). lia.
Qed.

(** the allocations are the addresses with handles *)
Lemma fresh_counts h c h' c' nx :
  Inv h c -> Inv h' c' -> (forall x, (0 < c' x)%nat -> (0 < c x)%nat) ->
  fresh h nx -> fresh h' nx.
Proof.
  intros (_ & _ & _ & D) I' P F. unfold fresh in *. rewrite Forall_forall in *. intros al HI.
  destruct (Inv_alloc_ok _ _ _ I' HI) as (_ & _ & o & _).
  assert (In (a_addr al) (map a_addr h)) as H by (apply D, P; lia).
  apply in_map_iff in H. destruct H as (y & E & Hy). rewrite <- E. auto.
Qed.

Lemma evolves_upd h c a al f c' :
  Inv h c -> lookup h a = Some al ->
  keeps_addr f -> keeps_data f -> (forall y, a_utf8 y = true -> a_utf8 (f y) = true) ->
  alloc_ok c' (f al) -> (forall x, x <> a -> c' x = c x) ->
  evolves h c (upd h a f) c'.
Proof.
  intros I L KA KD KU OK E. pose proof I as (A & B & C & D).
  destruct (lookup_Some _ _ _ L) as [HI HA]. split; [repeat split|].
  - rewrite (upd_map a_addr); auto.
  - rewrite (upd_map a_data); auto.
  - apply Forall_upd; intros y Hy Ey.
    + apply (alloc_ok_ext c); [auto|exact (Inv_alloc_ok h c y I Hy)].
    + replace y with al; [exact OK|].
      pose proof (lookup_In h y A Hy) as L'. rewrite Ey, L in L'. congruence.
  - intros x Hx. rewrite (upd_map a_addr) by auto. destruct (N.eq_dec x a) as [->|NE].
    + rewrite <- HA. apply in_map, HI.
    + apply D. rewrite <- E; auto.
  - intros x Hx _. apply keeps_upd; auto.
Qed.

Lemma evolves_del h c a c' :
  Inv h c -> c' a = 0%nat -> (forall x, x <> a -> c' x = c x) -> evolves h c (del h a) c'.
Proof.
  intros I Z E. pose proof I as (A & B & C & D).
  assert (NE : forall x, (0 < c' x)%nat -> x <> a) by (intros x Hx ->; lia).
  split; [repeat split|].
  - apply NoDup_map_filter, A.
  - apply NoDup_map_filter, B.
  - apply Forall_forall. intros y Hy. apply In_del in Hy. destruct Hy as [Hy Ny].
    apply (alloc_ok_ext c); [auto|exact (Inv_alloc_ok h c y I Hy)].
  - intros x Hx. pose proof (NE x Hx) as Nx. rewrite E in Hx by exact Nx.
    apply D, in_map_iff in Hx. destruct Hx as (y & <- & Hy). apply in_map, In_del. auto.
  - intros x Hx Hx'. destruct (lookup_ex h x (D x Hx)) as [ax Ex]. exists ax, ax.
    rewrite lookup_del. destruct (N.eqb_spec x a) as [e|_]; [destruct (NE x Hx' e)|auto].
Qed.

Lemma evolves_new h c a d :
  Inv h c -> ~ In a (map a_addr h) -> ~ In d (map a_data h) ->
  evolves h c (mkAlloc a d 2 false true :: h) (bump c a).
Proof.
  intros (A & B & C & D) NA ND.
  assert (C0 : c a = 0%nat). { destruct (c a) eqn:E; auto. exfalso. apply NA, D. lia. }
  split; [repeat split; cbn [map]|].
  - constructor; auto.
  - constructor; auto.
  - constructor.
    + unfold alloc_ok. sim. rewrite bump_same, C0. repeat split; auto; discriminate.
    + eapply Forall_impl; [|exact C]. intros y OK. apply (alloc_ok_ext c); [|exact OK].
      apply bump_other. intros e. destruct OK as (_ & _ & o & _). rewrite e, C0 in o. lia.
  - intros x Hx. unfold bump in Hx. destruct (N.eq_dec x a); [left; auto|right; auto].
  - intros x Hx _. destruct (lookup_ex h x (D x Hx)) as [ax Ex]. exists ax, ax.
    split; auto. split; auto. unfold lookup. cbn [find]. sim.
    destruct (N.eqb_spec a x) as [e|e]; auto. subst. rewrite C0 in Hx. lia.
Qed.

Lemma clone_ok h c a :
  Inv h c -> (0 < c a)%nat -> (N.of_nat (c a) + 2 < refcnt_lim)%N ->
  exists h', inner_clone h a = Some h' /\ evolves h c h' (bump c a).
Proof.
  intros I Ha Hb. destruct (Inv_lookup _ _ _ I Ha) as (al & L & _ & HA & (P & R & O & U)).
  rewrite HA in *. unfold inner_clone. rewrite L.
  destruct (N.leb_spec refcnt_lim (a_rc al + 1)) as [Lim|_]; [lia|].
  eexists. split; [reflexivity|]. apply (evolves_upd h c a al); auto with c18.
  - unfold alloc_ok. sim. rewrite HA, bump_same. repeat split; auto; lia.
  - intros x. apply bump_other.
Qed.

Lemma inner_drop_last h a al :
  lookup h a = Some al -> a_rc al = 1%N -> inner_drop h a = Some (del h a).
Proof. intros L R. unfold inner_drop. rewrite L, R. reflexivity. Qed.

Lemma inner_drop_more h a al :
  lookup h a = Some al -> (1 < a_rc al)%N -> inner_drop h a = Some (upd h a (set_rc (a_rc al - 1))).
Proof.
  intros L R. unfold inner_drop. rewrite L.
  destruct (N.eqb_spec (a_rc al) 0); [lia|]. destruct (N.eqb_spec (a_rc al - 1) 0); [lia|reflexivity].
Qed.

Lemma drop_ok h c a :
  Inv h c -> (0 < c a)%nat ->
  exists h', handle_drop h a = Some h' /\ evolves h c h' (unbump c a).
Proof.
  intros I Ha. destruct (Inv_lookup _ _ _ I Ha) as (al & L & HI & HA & (P & R & O & U)).
  rewrite HA in *. unfold handle_drop, maybe_unpool. rewrite L.
  destruct (N.leb_spec (a_rc al) 2) as [L2|L2].
  - (* last handle: the pool's reference goes, then the handle's own frees *)
    destruct I as (A & B & C & D). rewrite (pool_find_In h al B HI P), HA.
    erewrite inner_drop_more; [|apply lookup_upd_same; eauto with c18|sim; lia].
    erewrite inner_drop_last;
      [|apply lookup_upd_same; [|apply lookup_upd_same]; eauto with c18|sim; lia].
    rewrite !del_upd by auto with c18.
    eexists. split; [reflexivity|]. apply evolves_del; [repeat split; assumption| |].
    + rewrite unbump_same. lia.
    + intros x. apply unbump_other.
  -
    rewrite (inner_drop_more h a al L) by lia.
    eexists. split; [reflexivity|]. apply (evolves_upd h c a al); auto with c18.
    + unfold alloc_ok. sim. rewrite HA, unbump_same. repeat split; auto; lia.
    + intros x. apply unbump_other.
Qed.

Lemma reclone_ok h c a :
  Inv h c -> (0 < c a)%nat -> (N.of_nat (c a) + 2 < refcnt_lim)%N ->
  exists h', reclone h a = Some h' /\ evolves h c h' c.
Proof.
  intros I Ha Hb. destruct (clone_ok h c a I Ha Hb) as (h1 & E1 & EV1).
  destruct (drop_ok h1 (bump c a) a) as (h2 & E2 & EV2); [apply EV1|rewrite bump_same; lia|].
  exists h2. unfold reclone. rewrite E1. split; [exact E2|].
  apply (evolves_ext _ _ _ _ _ (bump_unbump c a)), (evolves_trans _ _ _ _ _ _ EV1 EV2).
  intros x Hx _. unfold bump. destruct (N.eq_dec x a); lia.
Qed.

Lemma set_utf8_ok h c a al :
  Inv h c -> lookup h a = Some al -> valid_utf8 (a_data al) = true ->
  evolves h c (upd h a set_utf8) c.
Proof.
  intros I L V. apply (evolves_upd h c a al); auto with c18.
  destruct (Inv_alloc_ok h c al I) as (p & r & o & _); [apply (lookup_Some _ _ _ L)|].
  unfold alloc_ok. sim. auto.
Qed.

Lemma flag_reclone_ok h c a al :
  Inv h c -> lookup h a = Some al -> valid_utf8 (a_data al) = true ->
  (0 < c a)%nat -> (N.of_nat (c a) + 2 < refcnt_lim)%N ->
  exists h', reclone (upd h a set_utf8) a = Some h' /\ evolves h c h' c /\ flagged h' a.
Proof.
  intros I L V Ha Hb. pose proof (set_utf8_ok h c a al I L V) as EV2.
  destruct (reclone_ok _ c a (proj1 EV2) Ha Hb) as (h' & E & EV3).
  exists h'. split; [exact E|]. split.
  - exact (evolves_trans _ _ _ _ _ _ EV2 EV3 (fun x H _ => H)).
  - apply (keeps_flagged (upd h a set_utf8)); [apply EV3; exact Ha|].
    exists (set_utf8 al). split; [apply lookup_upd_same; auto with c18|reflexivity].
Qed.

Lemma Inv_all_pooled h c : Inv h c -> Forall (fun al => a_pooled al = true) h.
Proof. intros (A & B & C & D). eapply Forall_impl; [|exact C]. intros al (p & _). exact p. Qed.

Lemma intern_ok h c next d :
  Inv h c -> fresh h next -> (forall x, N.of_nat (c x) + 2 < refcnt_lim)%N ->
  exists h' next' a,
    intern_raw h next d = Some (h', next', a) /\ evolves h c h' (bump c a) /\ fresh h' next' /\
    (exists al, lookup h' a = Some al /\ a_data al = d).
Proof.
  intros I F Hb. unfold intern_raw. destruct (pool_find h d) as [p|] eqn:PF.
  - destruct (pool_find_Some _ _ _ PF) as (HI & HD & HP).
    destruct (Inv_alloc_ok _ _ _ I HI) as (_ & _ & Hc & _).
    destruct (clone_ok h c (a_addr p) I Hc (Hb _)) as (h1 & E1 & EV).
    rewrite E1. exists h1, next, (a_addr p). split; [reflexivity|]. split; [exact EV|]. split.
    + apply (fresh_counts h c h1 (bump c (a_addr p))); auto; [apply EV|]. intros x. apply bump_pos, Hc.
    + destruct I as (A & _). destruct EV as [_ K].
      destruct (K (a_addr p)) as (al & al' & L1 & L2 & L3 & _); [lia|rewrite bump_same; lia|].
      exists al'. split; auto. rewrite L3. rewrite (lookup_In h p A HI) in L1. congruence.
  - pose proof (fresh_notin _ _ F) as NI.
    pose proof (pool_find_None _ _ (Inv_all_pooled _ _ I) PF) as ND.
    unfold inner_clone, lookup. cbn [find]. sim. rewrite N.eqb_refl.
    change (refcnt_lim <=? 1 + 1)%N with false. cbn iota.
    unfold upd. cbn [map]. sim. rewrite N.eqb_refl.
    fold (upd h next (set_rc (1 + 1))). rewrite (upd_notin h next _ NI).
    eexists _, _, _. split; [reflexivity|]. split; [apply evolves_new; assumption|]. split.
    + constructor; sim; [lia|]. eapply Forall_impl; [|exact F]. cbn beta. intros; lia.
    + eexists. unfold lookup. cbn [find]. sim. rewrite N.eqb_refl. split; reflexivity.
Qed.

(** * Slots and counts *)
Lemma cnt_app l1 l2 x : cnt (refs_of (l1 ++ l2)) x = (cnt (refs_of l1) x + cnt (refs_of l2) x)%nat.
Proof. unfold cnt, refs_of. rewrite flat_map_app. apply count_occ_app. Qed.

Lemma cnt_cons y l x : cnt (refs_of (y :: l)) x = (cnt (refs_of [y]) x + cnt (refs_of l) x)%nat.
Proof. apply (cnt_app [y] l). Qed.

Lemma cnt_one k a x : cnt (refs_of [Some (k, a)]) x = if N.eq_dec a x then 1%nat else 0%nat.
Proof. reflexivity. Qed.

Lemma cnt_app_one sl k a x : cnt (refs_of (sl ++ [Some (k, a)])) x = bump (cnt (refs_of sl)) a x.
Proof.
  rewrite cnt_app, cnt_one. unfold bump.
  destruct (N.eq_dec a x), (N.eq_dec x a); subst; try congruence; lia.
Qed.

Lemma cnt_pos_in sl a : (0 < cnt (refs_of sl) a)%nat -> exists k, In (Some (k, a)) sl.
Proof.
  unfold cnt, refs_of. intros H. apply count_occ_In, in_flat_map in H.
  destruct H as ([[k a']|] & HI & Ha); [|contradiction]. destruct Ha as [->|[]]. eauto.
Qed.

Lemma in_slots_pos sl k x : In (Some (k, x)) sl -> (0 < cnt (refs_of sl) x)%nat.
Proof.
  intros HI. unfold cnt, refs_of. apply count_occ_In, in_flat_map.
  exists (Some (k, x)). split; [exact HI|left; reflexivity].
Qed.

Lemma cnt_nth_pos sl i k a : nth_error sl i = Some (Some (k, a)) -> (0 < cnt (refs_of sl) a)%nat.
Proof. intros H. eapply in_slots_pos, nth_error_In, H. Qed.

Lemma cnt_set_nth sl i o v x :
  nth_error sl i = Some o ->
  (cnt (refs_of (set_nth i v sl)) x + cnt (refs_of [o]) x = cnt (refs_of sl) x + cnt (refs_of [v]) x)%nat.
Proof.
  revert i. induction sl as [|y sl IH]; intros [|i] H; try discriminate; cbn [set_nth nth_error] in *.
  - injection H as ->. rewrite (cnt_cons v sl), (cnt_cons o sl). lia.
  - specialize (IH i H). rewrite (cnt_cons y (set_nth _ _ _)), (cnt_cons y sl). lia.
Qed.

Lemma cnt_set_none sl i k a x :
  nth_error sl i = Some (Some (k, a)) ->
  cnt (refs_of (set_nth i None sl)) x = unbump (cnt (refs_of sl)) a x.
Proof.
  intros H. pose proof (cnt_set_nth sl i _ None x H) as E. rewrite cnt_one in E.
  change (cnt (refs_of [None]) x) with 0%nat in E. unfold unbump.
  destruct (N.eq_dec a x), (N.eq_dec x a); subst; try congruence; lia.
Qed.

Lemma cnt_set_same sl i k k' a x :
  nth_error sl i = Some (Some (k, a)) ->
  cnt (refs_of (set_nth i (Some (k', a)) sl)) x = cnt (refs_of sl) x.
Proof. intros H. pose proof (cnt_set_nth sl i _ (Some (k', a)) x H) as E. rewrite !cnt_one in E. lia. Qed.

Lemma cnt_le_len sl x : (cnt (refs_of sl) x <= length sl)%nat.
Proof.
  induction sl as [|y sl IH]; [cbn; lia|]. rewrite cnt_cons. cbn [length].
  destruct y as [[k a]|]; [rewrite cnt_one; destruct (N.eq_dec a x)|change (cnt (refs_of [None]) x) with 0%nat]; lia.
Qed.

Lemma in_set_nth {A} i (v y : A) l : In y (set_nth i v l) -> y = v \/ In y l.
Proof.
  revert i. induction l as [|z l IH]; intros [|i] H; cbn in *; auto.
  - destruct H; auto.
  - destruct H; auto. destruct (IH _ H); auto.
Qed.

Lemma map_set_nth {A B} (f : A -> B) i v l : map f (set_nth i v l) = set_nth i (f v) (map f l).
Proof.
  revert i. induction l as [|z l IH]; intros [|i]; cbn; auto. rewrite IH. reflexivity.
Qed.

Lemma length_set_nth {A} i (v : A) l : length (set_nth i v l) = length l.
Proof. revert i. induction l as [|z l IH]; intros [|i]; cbn; auto. Qed.

(** * State invariant *)
Definition absf (h : heap) (o : option handle) : option (kind * bytes) :=
  match o with Some (k, a) => Some (k, data_of h a) | None => None end.

Lemma abs_absf s : abs s = map (absf (st_heap s)) (st_slots s).
Proof. reflexivity. Qed.

Lemma nth_abs s i : nth_error (abs s) i = option_map (absf (st_heap s)) (nth_error (st_slots s) i).
Proof. apply nth_error_map. Qed.

Lemma abs_length s : length (abs s) = length (st_slots s).
Proof. apply map_length. Qed.

Definition str_ok (h : heap) (sl : list (option handle)) : Prop :=
  forall a, In (Some (KStr, a)) sl -> exists al, lookup h a = Some al /\ a_utf8 al = true.

Definition SInv (s : state) : Prop :=
  Inv (st_heap s) (cnt (refs_of (st_slots s))) /\ fresh (st_heap s) (st_next s) /\
  str_ok (st_heap s) (st_slots s).

Definition small (s : state) : Prop := (N.of_nat (length (st_slots s)) + 3 < refcnt_lim)%N.

(** 3 = pool's reference + added handle + temporary of a conversion (all three in [intern_str]) *)
Lemma bound_of s x : small s -> (N.of_nat (cnt (refs_of (st_slots s)) x) + 3 < refcnt_lim)%N.
Proof. unfold small. pose proof (cnt_le_len (st_slots s) x). lia. Qed.

Lemma bound2_of s x : small s -> (N.of_nat (cnt (refs_of (st_slots s)) x) + 2 < refcnt_lim)%N.
Proof. intros SM. pose proof (bound_of s x SM). lia. Qed.

Lemma finish s h' sl' nx' :
  SInv s -> Inv h' (cnt (refs_of sl')) -> fresh h' nx' ->
  (forall x, In (Some (KStr, x)) sl' ->
     (In (Some (KStr, x)) (st_slots s) /\ keeps (st_heap s) h' x) \/
     (exists al, lookup h' x = Some al /\ a_utf8 al = true)) ->
  SInv (mkState h' sl' nx').
Proof.
  intros (I & F & S) I' F' H. split; [exact I'|]. split; [exact F'|].
  intros x Hx. destruct (H x Hx) as [[Ho K]|N]; [|exact N].
  apply (keeps_flagged _ _ _ K), S, Ho.
Qed.

Lemma abs_kept h c h' c' l :
  evolves h c h' c' ->
  (forall k x, In (Some (k, x)) l -> (0 < c x)%nat /\ (0 < c' x)%nat) ->
  map (absf h') l = map (absf h) l.
Proof.
  intros [_ K] P. apply map_ext_in. intros [[k x]|] HI; [|reflexivity]. cbn [absf].
  destruct (P k x HI). rewrite (keeps_data_of h h' x); auto.
Qed.

Lemma push_ok h sl nx h' nx' k a :
  SInv (mkState h sl nx) ->
  evolves h (cnt (refs_of sl)) h' (bump (cnt (refs_of sl)) a) -> fresh h' nx' ->
  (k = KStr -> flagged h' a) ->
  SInv (mkState h' (sl ++ [Some (k, a)]) nx') /\
  abs (mkState h' (sl ++ [Some (k, a)]) nx') = abs (mkState h sl nx) ++ [Some (k, data_of h' a)].
Proof.
  intros SI EV F' U. pose proof EV as [I' K].
  assert (P : forall k' x, In (Some (k', x)) sl ->
                (0 < cnt (refs_of sl) x)%nat /\ (0 < bump (cnt (refs_of sl)) a x)%nat).
  { intros k' x Hx. apply in_slots_pos in Hx. unfold bump. destruct (N.eq_dec x a); lia. }
  split.
  - apply (finish (mkState h sl nx)); auto.
    + eapply Inv_ext; [|exact I']. intros x. symmetry. apply cnt_app_one.
    + intros x Hx. apply in_app_or in Hx. destruct Hx as [Hx|[Hx|[]]].
      * left. split; [exact Hx|]. apply K; apply (P _ _ Hx).
      * injection Hx as -> ->. right. apply U. reflexivity.
  - rewrite !abs_absf. cbn [st_heap st_slots]. rewrite map_app. f_equal. apply (abs_kept _ _ _ _ _ EV P).
Qed.

Lemma set_ok h sl nx h' i v c' :
  SInv (mkState h sl nx) ->
  (forall x, cnt (refs_of (set_nth i v sl)) x = c' x) ->
  (forall x, (0 < c' x)%nat -> (0 < cnt (refs_of sl) x)%nat) ->
  evolves h (cnt (refs_of sl)) h' c' ->
  (forall x, v = Some (KStr, x) -> flagged h' x) ->
  SInv (mkState h' (set_nth i v sl) nx) /\
  abs (mkState h' (set_nth i v sl) nx) = set_nth i (absf h v) (abs (mkState h sl nx)).
Proof.
  intros SI E M EV U. pose proof SI as (I & F & _). pose proof EV as [I' K].
  assert (P : forall k' x, In (Some (k', x)) (set_nth i v sl) ->
                (0 < cnt (refs_of sl) x)%nat /\ (0 < c' x)%nat).
  { intros k' x Hx. apply in_slots_pos in Hx. rewrite E in Hx. auto. }
  split.
  - apply (finish (mkState h sl nx)); auto.
    + eapply Inv_ext; [|exact I']. intros x. symmetry. apply E.
    + exact (fresh_counts _ _ _ _ nx I I' M F).
    + intros x Hx. destruct (in_set_nth _ _ _ _ Hx) as [Hv|Ho]; [right; apply U; auto|left].
      split; [exact Ho|]. apply K; apply (P _ _ Hx).
  - rewrite !abs_absf. cbn [st_heap st_slots]. rewrite (abs_kept _ _ _ _ _ EV P). apply map_set_nth.
Qed.

(** * One step *)
Definition refines_step (s : state) (o : op) : Prop :=
  match impl_step s o with
  | Some s' => SInv s' /\ abs s' = spec_step (abs s) o
  | None => False
  end.

Lemma evolves_flagged h c h' c' a :
  evolves h c h' c' -> (0 < c a)%nat -> (0 < c' a)%nat -> flagged h a -> flagged h' a.
Proof. intros [_ K] Ha Ha'. apply keeps_flagged, K; assumption. Qed.

Lemma drop_slot_ok h sl nx i k a :
  SInv (mkState h sl nx) -> nth_error sl i = Some (Some (k, a)) ->
  match with_heap (mkState h sl nx) (handle_drop h a) (set_nth i None sl) with
  | Some s' => SInv s' /\ abs s' = set_nth i None (abs (mkState h sl nx))
  | None => False
  end.
Proof.
  intros SI N. destruct (drop_ok h _ a (proj1 SI) (cnt_nth_pos _ _ _ _ N)) as (h' & E & EV).
  rewrite E. apply (set_ok h sl nx h' i None _ SI (fun x => cnt_set_none sl i k a x N)).
  - apply unbump_pos.
  - exact EV.
  - discriminate.
Qed.

Lemma retag_slot_ok h sl nx i k k' a r :
  SInv (mkState h sl nx) -> nth_error sl i = Some (Some (k, a)) ->
  (exists h', r = Some h' /\ evolves h (cnt (refs_of sl)) h' (cnt (refs_of sl)) /\
              (k' = KStr -> flagged h' a)) ->
  match with_heap (mkState h sl nx) r (set_nth i (Some (k', a)) sl) with
  | Some s' => SInv s' /\ abs s' = set_nth i (Some (k', data_of h a)) (abs (mkState h sl nx))
  | None => False
  end.
Proof.
  intros SI N (h' & -> & EV & FL).
  apply (set_ok h sl nx h' i (Some (k', a)) _ SI (fun x => cnt_set_same sl i k k' a x N)).
  - auto.
  - exact EV.
  - intros x [= -> <-]. apply FL. reflexivity.
Qed.

Lemma intern_bytes_step s d : SInv s -> small s -> refines_step s (OInternBytes d).
Proof.
  intros SI SM. destruct s as [h sl nx]. pose proof SI as (I & F & _). unfold refines_step.
  cbn [impl_step spec_step st_heap st_slots st_next] in *.
  destruct (intern_ok h _ nx d I F (fun x => bound2_of _ x SM))
    as (h' & nx' & a & E & EV & F' & (al & L & LD)).
  rewrite E. replace d with (data_of h' a) by (unfold data_of; rewrite L; exact LD).
  apply push_ok; auto. discriminate.
Qed.

Lemma intern_str_step s d : SInv s -> small s -> refines_step s (OInternStr d).
Proof.
  intros SI SM. destruct s as [h sl nx]. pose proof SI as (I & F & _). unfold refines_step.
  cbn [impl_step spec_step st_heap st_slots st_next] in *.
  destruct (valid_utf8 d) eqn:V; [|auto].
  destruct (intern_ok h _ nx d I F (fun x => bound2_of _ x SM))
    as (h1 & nx' & a & E & EV1 & F1 & (al & L & LD)).
  rewrite E. rewrite <- LD in V.
  destruct (flag_reclone_ok h1 _ a al (proj1 EV1) L V) as (h3 & E3 & EV13 & FL).
  { rewrite bump_same. lia. }
  { rewrite bump_same. pose proof (bound_of _ a SM). cbn [st_slots] in *. lia. }
  rewrite E3. replace d with (data_of h3 a).
  2:{ rewrite (keeps_data_of h1 h3 a) by (apply EV13; rewrite bump_same; lia).
      unfold data_of. rewrite L. exact LD. }
  apply push_ok; [exact SI| | |intros _; exact FL].
  - exact (evolves_trans _ _ _ _ _ _ EV1 EV13 (fun x _ H => H)).
  - exact (fresh_counts _ _ _ _ nx' (proj1 EV1) (proj1 EV13) (fun x H => H) F1).
Qed.

Lemma clone_step s i : SInv s -> small s -> refines_step s (OClone i).
Proof.
  intros SI SM. destruct s as [h sl nx]. pose proof SI as (I & F & S). unfold refines_step.
  cbn [impl_step spec_step st_heap st_slots st_next] in *. rewrite nth_abs. cbn [st_heap st_slots].
  destruct (nth_error sl i) as [[[k a]|]|] eqn:N; cbn [option_map absf]; [|auto..].
  pose proof (cnt_nth_pos _ _ _ _ N) as Pa.
  destruct (clone_ok h _ a I Pa (bound2_of _ a SM)) as (h' & E & EV). rewrite E. cbn [with_heap st_next].
  assert (Pa' : (0 < bump (cnt (refs_of sl)) a a)%nat) by (rewrite bump_same; lia).
  rewrite <- (keeps_data_of h h' a) by (apply EV; assumption).
  apply push_ok; [exact SI|exact EV| |].
  - exact (fresh_counts _ _ _ _ nx I (proj1 EV) (fun x => bump_pos _ a x Pa) F).
  - intros ->. apply (evolves_flagged _ _ _ _ _ EV Pa Pa'), S, (nth_error_In _ _ N).
Qed.

Lemma drop_step s i : SInv s -> refines_step s (ODrop i).
Proof.
  intros SI. destruct s as [h sl nx]. unfold refines_step.
  cbn [impl_step spec_step st_heap st_slots]. rewrite nth_abs. cbn [st_heap st_slots].
  destruct (nth_error sl i) as [[[k a]|]|] eqn:N; cbn [option_map absf]; [|auto..].
  exact (drop_slot_ok h sl nx i k a SI N).
Qed.

Lemma cast_bytes_step s i : SInv s -> small s -> refines_step s (OCastBytes i).
Proof.
  intros SI SM. destruct s as [h sl nx]. unfold refines_step.
  cbn [impl_step spec_step st_heap st_slots]. rewrite nth_abs. cbn [st_heap st_slots].
  destruct (nth_error sl i) as [[[[|] a]|]|] eqn:N; cbn [option_map absf]; [|auto..].
  apply (retag_slot_ok h sl nx i KStr KBytes a _ SI N).
  destruct (reclone_ok h _ a (proj1 SI) (cnt_nth_pos _ _ _ _ N) (bound2_of _ a SM)) as (h' & E & EV).
  exists h'. split; [exact E|]. split; [exact EV|discriminate].
Qed.

Lemma cast_str_step s i : SInv s -> small s -> refines_step s (OCastStr i).
Proof.
  intros SI SM. destruct s as [h sl nx]. pose proof (proj1 SI) as I. unfold refines_step.
  cbn [impl_step spec_step st_heap st_slots] in *. rewrite nth_abs. cbn [st_heap st_slots].
  destruct (nth_error sl i) as [[[[|] a]|]|] eqn:N; cbn [option_map absf]; [auto| |auto..].
  pose proof (cnt_nth_pos _ _ _ _ N) as Pa. pose proof (bound2_of _ a SM) as Ba.
  destruct (Inv_lookup _ _ _ I Pa) as (al & L & _ & _ & (_ & _ & _ & U)).
  assert (DA : data_of h a = a_data al) by (unfold data_of; rewrite L; reflexivity).
  rewrite L, DA. destruct (a_utf8 al) eqn:UF.
  - rewrite (U eq_refl), <- DA. apply (retag_slot_ok h sl nx i KBytes KStr a _ SI N).
    destruct (reclone_ok h _ a I Pa Ba) as (h' & E & EV).
    exists h'. split; [exact E|]. split; [exact EV|]. intros _.
    apply (evolves_flagged _ _ _ _ _ EV Pa Pa). exists al. auto.
  - destruct (valid_utf8 (a_data al)) eqn:V.
    + rewrite <- DA. apply (retag_slot_ok h sl nx i KBytes KStr a _ SI N).
      destruct (flag_reclone_ok h _ a al I L V Pa Ba) as (h' & E & EV & FL). eauto.
    + exact (drop_slot_ok h sl nx i KBytes a SI N).
Qed.

Lemma step_ok s o : SInv s -> small s -> refines_step s o.
Proof.
  destruct o as [d|d|i|i|i|i|].
  - apply intern_bytes_step.
  - apply intern_str_step.
  - apply clone_step.
  - intros SI _. apply drop_step, SI.
  - apply cast_bytes_step.
  - apply cast_str_step.
  - intros SI _. split; [exact SI|reflexivity].
Qed.

(** * Whole histories *)
Lemma SInv_init : SInv init.
Proof.
  unfold SInv, init. cbn. repeat split; try constructor.
  - intros a H. unfold cnt in H. cbn in H. lia.
  - intros a [].
Qed.

Lemma spec_step_length t o : (length (spec_step t o) <= S (length t))%nat.
Proof.
  destruct o as [d|d|j|j|j|j|]; cbn [spec_step];
    try destruct (valid_utf8 d); try destruct (nth_error t j) as [[[[|] c]|]|];
    rewrite ?app_length, ?length_set_nth; cbn [length]; lia.
Qed.

Lemma spec_run_length ops : (length (spec_run ops) <= length ops)%nat.
Proof.
  unfold spec_run. change (length ops) with (length (@nil (option (kind * bytes))) + length ops)%nat.
  generalize (@nil (option (kind * bytes))). induction ops as [|o ops IH]; intros t; cbn [fold_left length]; [lia|].
  specialize (IH (spec_step t o)). pose proof (spec_step_length t o). lia.
Qed.

Lemma run_ok ops : forall s,
  SInv s -> (N.of_nat (length (st_slots s) + length ops) + 3 < refcnt_lim)%N ->
  exists s', impl_run s ops = Some s' /\ SInv s' /\ abs s' = fold_left spec_step ops (abs s).
Proof.
  induction ops as [|o ops IH]; intros s SI B.
  - exists s. cbn. auto.
  - cbn [length] in B.
    assert (H : small s) by (unfold small; lia). apply (step_ok s o SI) in H. unfold refines_step in H.
    cbn [impl_run fold_left]. destruct (impl_step s o) as [s1|]; [|contradiction].
    destruct H as [SI1 A1]. rewrite <- A1. apply (IH s1 SI1).
    pose proof (spec_step_length (abs s) o) as L. rewrite <- A1, !abs_length in L. lia.
Qed.

(** the theorem of this file *)
Lemma reach ops s :
  short ops -> impl_run init ops = Some s -> SInv s /\ abs s = spec_run ops.
Proof.
  intros B E. destruct (run_ok ops init SInv_init) as (s' & E' & SI & A); [exact B|].
  rewrite E in E'. injection E' as <-. auto.
Qed.

(** * Observables under the invariant *)
Lemma eq_iff_content_inv s i j : SInv s -> impl_eq s i j = spec_eq (abs s) i j.
Proof.
  intros (I & F & S). unfold impl_eq, spec_eq. rewrite !nth_abs.
  destruct (nth_error (st_slots s) i) as [[[k1 a1]|]|] eqn:N1; cbn [option_map absf]; auto.
  destruct (nth_error (st_slots s) j) as [[[k2 a2]|]|] eqn:N2; cbn [option_map absf]; auto.
  f_equal.
  destruct (Inv_lookup _ _ _ I (cnt_nth_pos _ _ _ _ N1)) as (al1 & L1 & H1 & A1 & _).
  destruct (Inv_lookup _ _ _ I (cnt_nth_pos _ _ _ _ N2)) as (al2 & L2 & H2 & A2 & _).
  unfold data_of. rewrite L1, L2. destruct I as (A & B & C & D).
  destruct (N.eqb_spec a1 a2) as [E|E]; symmetry.
  - replace al2 with al1 by congruence. apply bytes_eqb_eq. reflexivity.
  - apply not_true_iff_false. intros Q. apply bytes_eqb_eq in Q.
    apply E. rewrite <- A1, <- A2. f_equal. eapply NoDup_map_inj; eauto.
Qed.

Lemma live_contents_in t c : In c (live_contents t) <-> exists k, In (Some (k, c)) t.
Proof.
  unfold live_contents. rewrite in_flat_map. split.
  - intros ([[k c']|] & HI & Hc); [|contradiction]. destruct Hc as [->|[]]. eauto.
  - intros (k & HI). exists (Some (k, c)). split; auto. left; reflexivity.
Qed.

Lemma heap_data_live s d :
  SInv s -> In d (map a_data (st_heap s)) <-> In d (live_contents (abs s)).
Proof.
  intros ((A & B & C & D) & _). rewrite live_contents_in, in_map_iff. split.
  - intros (al & E & HI). rewrite Forall_forall in C. destruct (C al HI) as (_ & _ & o & _).
    destruct (cnt_pos_in (st_slots s) (a_addr al)) as (k & Hk); [lia|].
    exists k. rewrite abs_absf. apply in_map_iff. exists (Some (k, a_addr al)). split; [|exact Hk].
    cbn [absf]. unfold data_of. rewrite (lookup_In _ _ A HI), E. reflexivity.
  - intros (k & HI). rewrite abs_absf in HI. apply in_map_iff in HI.
    destruct HI as ([[k' a]|] & E & HI); [|discriminate]. injection E as _ <-.
    destruct (lookup_ex _ _ (D a (in_slots_pos _ _ _ HI))) as (al & L). unfold data_of. rewrite L.
    exists al. split; [reflexivity|]. apply (lookup_Some _ _ _ L).
Qed.

Lemma filter_all {A} (p : A -> bool) l : Forall (fun x => p x = true) l -> filter p l = l.
Proof. induction 1 as [|x l Hx _ IH]; cbn [filter]; [reflexivity|]. rewrite Hx, IH. reflexivity. Qed.

Lemma pool_len_inv s :
  SInv s -> pool_len s = spec_pool_len (abs s) /\ length (st_heap s) = pool_len s.
Proof.
  intros SI. pose proof SI as (I & _).
  unfold pool_len. rewrite (filter_all _ _ (Inv_all_pooled _ _ I)). split; [|reflexivity].
  unfold spec_pool_len. rewrite <- (map_length a_data).
  apply Permutation_length, NoDup_Permutation; [apply I|apply NoDup_nodup|].
  intros d. rewrite nodup_In. apply heap_data_live, SI.
Qed.

Lemma pool_drains_inv s : SInv s -> (forall o, In o (st_slots s) -> o = None) -> st_heap s = [].
Proof.
  intros (I & _) H. destruct (st_heap s) as [|al l]; [reflexivity|]. exfalso.
  destruct (Inv_alloc_ok _ _ al I (or_introl eq_refl)) as (_ & _ & o & _).
  destruct (cnt_pos_in _ _ o) as (k & Hk). discriminate (H _ Hk).
Qed.

Lemma utf8_sound_inv s :
  SInv s ->
  (forall al, In al (st_heap s) -> a_utf8 al = true -> valid_utf8 (a_data al) = true) /\
  (forall i a, nth_error (st_slots s) i = Some (Some (KStr, a)) ->
     valid_utf8 (data_of (st_heap s) a) = true).
Proof.
  intros (I & F & S).
  assert (G : forall al, In al (st_heap s) -> a_utf8 al = true -> valid_utf8 (a_data al) = true).
  { intros al HI. apply (Inv_alloc_ok _ _ al I HI). }
  split; [exact G|].
  intros i a N. destruct (S a (nth_error_In _ _ N)) as (al & L & U).
  unfold data_of. rewrite L. apply G; [apply (lookup_Some _ _ _ L)|exact U].
Qed.

Lemma refcount_inv s :
  SInv s ->
  (forall al, In al (st_heap s) ->
     a_rc al = (1 + N.of_nat (handles_on s (a_addr al)))%N /\ (1 <= handles_on s (a_addr al))%nat) /\
  (forall i k a, nth_error (st_slots s) i = Some (Some (k, a)) ->
     exists al, lookup (st_heap s) a = Some al).
Proof.
  intros (I & F & S). split.
  - intros al HI. destruct (Inv_alloc_ok _ _ al I HI) as (_ & r & o & _). auto.
  - intros i k a N. destruct (Inv_lookup _ _ _ I (cnt_nth_pos _ _ _ _ N)) as (al & L & _). eauto.
Qed.

(** * Live values keep their contents *)
Lemma nth_error_set_nth_same {A} i (v x : A) l :
  nth_error l i = Some x -> nth_error (set_nth i v l) i = Some v.
Proof. revert i. induction l as [|z l IH]; intros [|i] H; cbn in *; try discriminate; auto. Qed.

Lemma nth_error_set_nth_other {A} i j (v : A) l :
  i <> j -> nth_error (set_nth i v l) j = nth_error l j.
Proof.
  revert i j. induction l as [|z l IH]; intros [|i] [|j] H; cbn; auto; try congruence.
Qed.

Definition content_kept (t t' : sstate) : Prop :=
  forall i k c, nth_error t i = Some (Some (k, c)) ->
    nth_error t' i = Some None \/ exists k', nth_error t' i = Some (Some (k', c)).

Lemma content_kept_set t j o v :
  nth_error t j = Some o ->
  (forall k c, o = Some (k, c) -> v = None \/ exists k', v = Some (k', c)) ->
  content_kept t (set_nth j v t).
Proof.
  intros N Hv i k c H. destruct (Nat.eq_dec j i) as [->|NE].
  - rewrite (nth_error_set_nth_same _ _ _ _ N). destruct (Hv k c) as [->|[k' ->]]; [congruence|eauto..].
  - rewrite nth_error_set_nth_other by exact NE. eauto.
Qed.

Lemma spec_content_kept t o : content_kept t (spec_step t o).
Proof.
  assert (Same : content_kept t t) by (intros i k c H; eauto).
  assert (App : forall x, content_kept t (t ++ [x])).
  { intros x i k c H. right. exists k. rewrite nth_error_app1; [exact H|]. apply nth_error_Some. congruence. }
  destruct o as [d|d|j|j|j|j|]; cbn [spec_step]; auto.
  - destruct (valid_utf8 d); auto.
  - destruct (nth_error t j) as [[x|]|]; auto.
  - destruct (nth_error t j) as [[x|]|] eqn:N; auto. apply (content_kept_set _ _ _ _ N). auto.
  - destruct (nth_error t j) as [[[[|] c']|]|] eqn:N; auto. apply (content_kept_set _ _ _ _ N).
    intros k c [= _ <-]. eauto.
  - destruct (nth_error t j) as [[[[|] c']|]|] eqn:N; auto. apply (content_kept_set _ _ _ _ N).
    intros k c [= _ <-]. destruct (valid_utf8 c'); eauto.
Qed.

(** * The pool over whole histories *)
Lemma pool_is_live_contents ops s :
  short ops -> impl_run init ops = Some s ->
  pool_len s = spec_pool_len (spec_run ops) /\ length (st_heap s) = pool_len s.
Proof.
  intros B E. destruct (reach ops s B E) as [SI A]. rewrite <- A. apply pool_len_inv. exact SI.
Qed.

Lemma pool_drains ops s :
  short ops -> impl_run init ops = Some s ->
  (forall o, In o (st_slots s) -> o = None) -> st_heap s = [] /\ pool_len s = 0%nat.
Proof.
  intros B E H. destruct (reach ops s B E) as [SI A].
  pose proof (pool_drains_inv s SI H) as Z. split; [exact Z|]. unfold pool_len. rewrite Z. reflexivity.
Qed.

(** non-vacuity: a history exercising every operation *)
Definition demo_ops : list op :=
  [OInternStr [97%N]; OInternBytes [97%N]; OClone 0; OCastBytes 0; OCastStr 1; OHandover;
   OInternBytes [255%N]; OCastStr 3; ODrop 0; ODrop 1; ODrop 2].
Example demo_short : short demo_ops.
Proof. unfold short, demo_ops, refcnt_lim. cbn. lia. Qed.
Example demo_runs :
  exists s, impl_run init demo_ops = Some s /\ pool_len s = 0%nat /\
            abs s = [None; None; None; None].
Proof. eexists. split; [vm_compute; reflexivity|]. split; reflexivity. Qed.
Example demo_two_equal :
  exists s, impl_run init [OInternStr [97%N]; OInternBytes [97%N]; OInternBytes [98%N]] = Some s /\
            impl_eq s 0 1 = Some true /\ impl_eq s 0 2 = Some false /\ pool_len s = 2%nat.
Proof. eexists. split; [vm_compute; reflexivity|]. repeat split. Qed.
