(** C16 — property theorems: no observable depends on hash-map enumeration order. *)
From Coq Require Import List NArith Permutation.
From JrV Require Import C16.Model C16.Proofs.
Import ListNotations.

(** whatever algorithm sorts (Rust's sort_unstable / sort_by), under an antisymmetric
    and transitive comparison the result is THE sorted arrangement of the key set *)
Theorem C16_sorted_unique :
  forall (A : Type) (leb : A -> A -> bool), antisym leb -> trans leb ->
    forall l l', sorted leb l -> sorted leb l' -> Permutation l l' -> l = l'.
Proof. exact sorted_perm_unique. Qed.
Print Assumptions C16_sorted_unique.

(** std.objectFields*, manifestation order, `in`, equality: field enumeration *)
Theorem C16_fields_perm_invariant :
  forall enum enum', Permutation enum enum' -> fields_ex enum = fields_ex enum'.
Proof.
  apply isort_perm_invariant; [apply name_leb_total|apply name_leb_antisym|apply name_leb_trans].
Qed.
Print Assumptions C16_fields_perm_invariant.

(** 'did you mean' suggestions for an undefined local / unknown field *)
Theorem C16_suggest_perm_invariant :
  forall score thr enum enum', Permutation enum enum' -> suggest score thr enum = suggest score thr enum'.
Proof.
  intros score thr enum enum' Hp. unfold suggest.
  apply isort_perm_invariant;
    [apply cand_leb_total|apply cand_leb_antisym|apply cand_leb_trans|apply filter_perm; exact Hp].
Qed.
Print Assumptions C16_suggest_perm_invariant.

(** which of several failing top-level arguments is reported *)
Theorem C16_tla_error_choice_invariant :
  forall fails enum enum', Permutation enum enum' -> first_failing fails enum = first_failing fails enum'.
Proof. intros fails enum enum' Hp. exact (f_equal (find fails) (C16_fields_perm_invariant _ _ Hp)). Qed.
Print Assumptions C16_tla_error_choice_invariant.

(** the pre-fix algorithms (score-only sort; unsorted argument walk) did depend on it *)
Theorem C16_score_only_sort_refuted :
  exists score enum enum', Permutation enum enum' /\
    suggest_by_score score 0 enum <> suggest_by_score score 0 enum'.
Proof.
  exists (fun _ => 1%N), [[1%N]; [2%N]], [[2%N]; [1%N]]. split; [apply perm_swap|].
  cbn. discriminate.
Qed.
Print Assumptions C16_score_only_sort_refuted.

Theorem C16_unsorted_tla_walk_refuted :
  exists enum enum', Permutation enum enum' /\
    first_failing_unsorted (fun _ => true) enum <> first_failing_unsorted (fun _ => true) enum'.
Proof. exists [[1%N]; [2%N]], [[2%N]; [1%N]]. split; [apply perm_swap|]. cbn. discriminate. Qed.
Print Assumptions C16_unsorted_tla_walk_refuted.
