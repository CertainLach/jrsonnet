(** C16, part Tls — thread-local interpreter state is restored by every bracket protocol translated
    from the working tree (Gen/GenTls.v, Gen/GenStack.v), for all evaluation histories. *)
From Coq Require Import List Arith.
From JrV Require Import Gen.GenStack Gen.GenTls C16.ModelTls C16.ProofsTls.
Import ListNotations.

(** SOURCE TIE: in the transformers translated from obj/mod.rs (run_assertions), lib.rs (try_enter,
    import_resolved, in_frame, in_description_frame) and stack.rs, every exit, on the success and on the
    error path, undoes the entry. *)
Theorem C16_source_protocols_are_brackets : bracket_laws gen_protos.
Proof.
  constructor; cbn [gen_protos p_frame_enter p_frame_exit p_dframe_exit p_limit p_limit_drop p_ra_start p_ra_runs
                    p_ra_ok p_ra_err p_enter p_enter_drop p_imp_blocked p_imp_before p_imp_ok p_imp_err].
  - intros c m cm. unfold gen_check_depth, gen_in_frame_exit, gen_in_description_frame_exit, gen_guard_drop.
    destruct (Nat.ltb c m); intros H; inversion H; subst; cbn [fst snd].
    rewrite Nat.add_sub. split; reflexivity.
  - intros n c m. unfold gen_limit, gen_limit_drop. reflexivity.
  - intros o s. unfold gen_ra_start, gen_ra_runs, gen_ra_after_ok, gen_ra_after_err. cbn [fst snd].
    destruct (ts_mem o s) eqn:E; cbn [negb].
    + now apply ts_insert_in.
    + split; now apply ts_remove_insert.
  - intros st v v'. unfold gen_enter, gen_enter_drop. destruct v; intros H; inversion H; reflexivity.
  - intros f e. unfold gen_imp_blocked, gen_imp_before, gen_imp_after_ok, gen_imp_after_err, flag_get, flag_set.
    intros E. cbv zeta. split; now apply ts_remove_insert.
Qed.
Print Assumptions C16_source_protocols_are_brackets.

(** under the bracket laws the thread-local state after any history tree is the state before it *)
Theorem C16_brackets_restore_tls :
  forall P, bracket_laws P -> forall (e : ev) (s : tls), snd (run_g P e s) = s.
Proof. exact run_g_restores. Qed.
Print Assumptions C16_brackets_restore_tls.

Theorem C16_tls_restored :
  forall (e : ev) (s : tls), snd (run e s) = s.
Proof. exact (run_g_restores gen_protos C16_source_protocols_are_brackets). Qed.
Print Assumptions C16_tls_restored.

(** what ran before p on the thread changes neither p's outcome nor its final state *)
Theorem C16_history_independent :
  forall (ps : list ev) (p : ev) (s : tls), run p (run_history gen_protos ps s) = run p s.
Proof.
  intros ps p s. rewrite (run_history_restores gen_protos C16_source_protocols_are_brackets). reflexivity.
Qed.
Print Assumptions C16_history_independent.

Theorem C16_history_independent_result :
  forall (R : Type) (step : tls -> ev -> R) (ps : list ev) (p : ev) (s : tls),
    step (run_history gen_protos ps s) p = step s p.
Proof.
  intros R step ps p s. rewrite (run_history_restores gen_protos C16_source_protocols_are_brackets). reflexivity.
Qed.
Print Assumptions C16_history_independent_result.

(** seeded variant `run_assertions_core(..)?; .. finish_asserting(self);`: a failing assertion leaks an entry,
    and the same program, failing when run fresh, succeeds after a history that made it fail once *)
Theorem C16_restore_after_question_mark_refuted :
  (exists e s, snd (run_g leaky_assert_protos e s) <> s) /\
  (exists ps p s, fst (run_g leaky_assert_protos p (run_history leaky_assert_protos ps s))
                  <> fst (run_g leaky_assert_protos p s)).
Proof.
  split.
  - exists (Assert 7 (Leaf false)), tls0. vm_compute. discriminate.
  - exists [Assert 7 (Leaf false)], (Assert 7 (Leaf false)), tls0. vm_compute. discriminate.
Qed.
Print Assumptions C16_restore_after_question_mark_refuted.

(** seeded variant `let res = evaluate(..)?; file.evaluating = false;`: a failing import poisons the file *)
Theorem C16_evaluating_not_cleared_on_error_refuted :
  exists ps p s, fst (run_g leaky_import_protos p (run_history leaky_import_protos ps s))
                 <> fst (run_g leaky_import_protos p s).
Proof.
  exists [Import 3 (Leaf false)], (Import 3 (Leaf true)), tls0. vm_compute. discriminate.
Qed.
Print Assumptions C16_evaluating_not_cleared_on_error_refuted.

(** seeded variant `mem::forget(check_depth()?)` in in_frame: earlier programs use up the frame budget *)
Theorem C16_forgotten_depth_guard_refuted :
  exists ps p s, fst (run_g leaky_frame_protos p (run_history leaky_frame_protos ps s))
                 <> fst (run_g leaky_frame_protos p s).
Proof.
  exists [Frame false (Leaf false); Frame false (Leaf true)], (Frame false (Leaf true)), (mkTls 0 2 [] None []).
  vm_compute. discriminate.
Qed.
Print Assumptions C16_forgotten_depth_guard_refuted.

(** non-vacuity: a history that nests every protocol, fails inside, is caught, hits the stack limit and re-enters
    an object, a file and a state *)
Definition nv_tree : ev :=
  Enter 1 (Frame false (Seq (Catch (Import 3 (Frame true (Assert 7 (Seq (Assert 7 (Leaf true)) (Import 3 (Leaf true)))))))
                            (Seq (Catch (Limit 1 (Frame false (Frame false (Leaf true)))))
                                 (Seq (Catch (Enter 2 (Leaf true))) (Assert 8 (Leaf false)))))).
Example C16_tls_nonvacuous :
  run nv_tree tls0 = (false, tls0) /\
  run (Import 3 (Frame true (Assert 7 (Leaf true)))) tls0 = (true, tls0) /\
  (* the inner computation runs in a different state: the brackets are not no-ops *)
  snd (run_g gen_protos (Leaf true) (set_running (set_stack tls0 (1, 200)) (snd (gen_ra_start 7 [])))) = mkTls 1 200 [7] None [] /\
  fst (run (Import 3 (Import 3 (Leaf true))) tls0) = false /\
  fst (run (Assert 7 (Assert 7 (Leaf false))) tls0) = true /\
  fst (run (Enter 1 (Enter 2 (Leaf true))) tls0) = false /\
  fst (run (Limit 1 (Frame false (Frame false (Leaf true)))) tls0) = false /\
  run_history gen_protos [nv_tree; Assert 7 (Leaf false); Import 3 (Leaf false)] tls0 = tls0.
Proof. vm_compute. repeat split; reflexivity. Qed.
