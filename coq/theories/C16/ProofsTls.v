From Coq Require Import List Arith Bool.
From JrV Require Import Gen.GenTls C16.ModelTls.
Import ListNotations.

Lemma ts_remove_notin : forall o s, ts_mem o s = false -> ts_remove o s = s.
Proof.
  unfold ts_mem, ts_remove. induction s as [|x s IH]; cbn [existsb filter]; intros H; [reflexivity|].
  apply orb_false_iff in H. destruct H as [H1 H2]. rewrite H1. cbn [negb]. now rewrite IH.
Qed.

Lemma ts_remove_insert : forall o s, ts_mem o s = false -> ts_remove o (ts_insert o s) = s.
Proof.
  intros o s H. unfold ts_insert. rewrite H. unfold ts_remove. cbn [filter].
  rewrite Nat.eqb_refl. cbn [negb]. now apply ts_remove_notin.
Qed.

Lemma ts_mem_insert : forall o s, ts_mem o (ts_insert o s) = true.
Proof.
  intros o s. unfold ts_insert. destruct (ts_mem o s) eqn:E; [exact E|].
  unfold ts_mem. cbn [existsb]. now rewrite Nat.eqb_refl.
Qed.

Lemma ts_insert_in : forall o s, ts_mem o s = true -> ts_insert o s = s.
Proof. intros o s H. unfold ts_insert. now rewrite H. Qed.

Lemma run_g_restores : forall P, bracket_laws P -> forall e s, snd (run_g P e s) = s.
Proof.
  intros P L. induction e; intros [c m r v g]; cbn [run_g depth maxd running cur evalg]; cbv zeta.
  - (* Leaf *) reflexivity.
  - (* Seq *) destruct (fst (run_g P e1 _)); cbn [snd]; rewrite IHe1; [apply IHe2 | reflexivity].
  - (* Catch *) cbn [snd]. apply IHe.
  - (* Frame *) destruct (p_frame_enter P c m) as [cm|] eqn:E; [|reflexivity].
    cbn [snd]. rewrite IHe. destruct (law_frame P L _ _ _ E) as [A B].
    unfold set_stack. cbn [depth maxd fst snd]. destruct d; [rewrite B | rewrite A]; reflexivity.
  - (* Limit *) cbn [snd]. rewrite IHe. unfold set_stack. cbn [depth maxd fst snd].
    rewrite (law_limit P L). reflexivity.
  - (* Assert *) pose proof (law_ra P L o r) as H.
    destruct (p_ra_runs P (fst (p_ra_start P o r))).
    + destruct H as [A B].
      destruct (fst (run_g P e _)); cbn [snd]; rewrite IHe;
        unfold set_running; cbn [running]; [rewrite A | rewrite B]; reflexivity.
    + cbn [snd]. unfold set_running. rewrite H. reflexivity.
  - (* Enter *) destruct (p_enter P st v) as [v'|] eqn:E; [|reflexivity].
    cbn [snd]. rewrite IHe. unfold set_cur. cbn [cur].
    rewrite (law_enter P L _ _ _ E). reflexivity.
  - (* Import *) destruct (p_imp_blocked P (flag_get f g)) eqn:E; [reflexivity|].
    destruct (law_imp P L f g E) as [A B].
    destruct (fst (run_g P e _)); cbn [snd]; rewrite IHe;
      unfold set_evalg; cbn [evalg]; [rewrite A | rewrite B]; reflexivity.
Qed.

Lemma run_history_restores : forall P, bracket_laws P -> forall ps s, run_history P ps s = s.
Proof.
  intros P L. unfold run_history. induction ps as [|p ps IH]; intros s; cbn [fold_left]; [reflexivity|].
  rewrite (run_g_restores P L). apply IH.
Qed.
