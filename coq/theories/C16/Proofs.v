From Coq Require Import List NArith Permutation Lia.
From JrV Require Import C16.Model.
Import ListNotations.

Section SortFacts.
  Variable A : Type.
  Variable leb : A -> A -> bool.
  Hypothesis Htot : total leb.
  Hypothesis Hanti : antisym leb.
  Hypothesis Htrans : trans leb.

  Lemma insert_perm x l : Permutation (insert leb x l) (x :: l).
  Proof.
    induction l as [|y t IH]; cbn [insert]; [reflexivity|].
    destruct (leb x y); [reflexivity|].
    rewrite IH. apply perm_swap.
  Qed.

  Lemma isort_perm l : Permutation (isort leb l) l.
  Proof.
    induction l as [|x t IH]; cbn [isort]; [reflexivity|]. rewrite insert_perm, IH. reflexivity.
  Qed.

  Lemma insert_sorted x l : sorted leb l -> sorted leb (insert leb x l).
  Proof.
    induction 1 as [|y|y z t Hyz Hs IH]; cbn [insert].
    - constructor.
    - destruct (leb x y) eqn:E; [constructor; [exact E|constructor]|].
      constructor; [|constructor]. destruct (Htot x y) as [H|H]; congruence.
    - destruct (leb x y) eqn:E.
      + constructor; [exact E|]. constructor; assumption.
      + cbn [insert] in IH. destruct (leb x z) eqn:E2.
        * constructor; [destruct (Htot x y); congruence|]. constructor; assumption.
        * constructor; assumption.
  Qed.

  Lemma isort_sorted l : sorted leb (isort leb l).
  Proof. induction l as [|x t IH]; cbn [isort]; [constructor|apply insert_sorted; exact IH]. Qed.

  Lemma sorted_head_le x l : sorted leb (x :: l) -> forall y, In y l -> leb x y = true.
  Proof.
    revert x. induction l as [|z t IH]; intros x Hs y Hy; [contradiction|].
    inversion Hs as [| |? ? ? Hxz Hst]; subst. destruct Hy as [<-|Hy]; [exact Hxz|].
    eapply Htrans; [exact Hxz|]. apply IH; assumption.
  Qed.

  Lemma sorted_tail x l : sorted leb (x :: l) -> sorted leb l.
  Proof. intros H. inversion H; subst; [constructor|assumption]. Qed.

  (** a sorted list is determined by its elements: whatever algorithm sorted it *)
  Lemma sorted_perm_unique l : forall l', sorted leb l -> sorted leb l' -> Permutation l l' -> l = l'.
  Proof.
    induction l as [|x t IH]; intros l' Hs Hs' Hp.
    - apply Permutation_nil in Hp. subst. reflexivity.
    - destruct l' as [|y t']; [apply Permutation_sym, Permutation_nil in Hp; discriminate|].
      assert (Hxy : x = y).
      { assert (Hx : In x (y :: t')) by (eapply Permutation_in; [exact Hp|left; reflexivity]).
        assert (Hy : In y (x :: t)) by (eapply Permutation_in; [apply Permutation_sym; exact Hp|left; reflexivity]).
        destruct Hx as [->|Hx]; [reflexivity|]. destruct Hy as [->|Hy]; [reflexivity|].
        apply Hanti; eapply sorted_head_le; eauto. }
      subst y. f_equal. apply IH; [exact (sorted_tail _ _ Hs)|exact (sorted_tail _ _ Hs')|].
      exact (Permutation_cons_inv Hp).
  Qed.

  Theorem isort_perm_invariant l l' : Permutation l l' -> isort leb l = isort leb l'.
  Proof.
    intros Hp. apply sorted_perm_unique; try apply isort_sorted.
    rewrite !isort_perm. exact Hp.
  Qed.

  Theorem any_sort_is_isort l s : sorted leb s -> Permutation s l -> s = isort leb l.
  Proof.
    intros Hs Hp. apply sorted_perm_unique; [exact Hs|apply isort_sorted|].
    rewrite Hp, isort_perm. reflexivity.
  Qed.
End SortFacts.

(** both comparisons have the shape "smaller key first, the tie broken by [t]" *)
Lemma by_key_then p q (t : bool) :
  (if N.ltb p q then true else if N.ltb q p then false else t) = true
  <-> (p < q)%N \/ (p = q /\ t = true).
Proof. destruct (N.ltb_spec p q), (N.ltb_spec q p); intuition (discriminate || lia). Qed.

Lemma name_leb_cons x a y b :
  name_leb (x :: a) (y :: b) = true <-> (x < y)%N \/ (x = y /\ name_leb a b = true).
Proof. apply by_key_then. Qed.

Lemma name_leb_total : total name_leb.
Proof.
  intros a. induction a as [|x a IH]; intros [|y b]; [left; reflexivity..|right; reflexivity|].
  rewrite !name_leb_cons. destruct (N.lt_trichotomy x y) as [H|[->|H]]; auto.
  destruct (IH b); auto.
Qed.

Lemma name_leb_antisym : antisym name_leb.
Proof.
  intros a. induction a as [|x a IH]; intros [|y b] H1 H2; try discriminate; [reflexivity|].
  apply name_leb_cons in H1 as [H1|[-> H1]], H2 as [H2|[E H2]]; try lia.
  f_equal. exact (IH b H1 H2).
Qed.

Lemma name_leb_trans : trans name_leb.
Proof.
  intros a. induction a as [|x a IH]; intros [|y b] [|z c] H1 H2; try discriminate; try reflexivity.
  apply name_leb_cons. apply name_leb_cons in H1 as [H1|[-> H1]], H2 as [H2|[-> H2]]; try (left; lia).
  right. split; [reflexivity|exact (IH b c H1 H2)].
Qed.

Section SuggestFacts.
  Variable score : name -> N.

  Lemma cand_leb_spec a b :
    cand_leb score a b = true <-> (score b < score a)%N \/ (score b = score a /\ name_leb a b = true).
  Proof. apply by_key_then. Qed.

  Lemma cand_leb_total : total (cand_leb score).
  Proof.
    intros a b. rewrite !cand_leb_spec.
    destruct (N.lt_trichotomy (score a) (score b)) as [H|[H|H]]; auto.
    destruct (name_leb_total a b); auto.
  Qed.

  Lemma cand_leb_antisym : antisym (cand_leb score).
  Proof.
    intros a b H1 H2. apply cand_leb_spec in H1 as [H1|[E1 H1]], H2 as [H2|[E2 H2]]; try lia.
    exact (name_leb_antisym a b H1 H2).
  Qed.

  Lemma cand_leb_trans : trans (cand_leb score).
  Proof.
    intros a b c H1 H2. apply cand_leb_spec.
    apply cand_leb_spec in H1 as [H1|[E1 H1]], H2 as [H2|[E2 H2]]; try (left; lia).
    right. split; [congruence|exact (name_leb_trans a b c H1 H2)].
  Qed.
End SuggestFacts.

Lemma filter_perm {A} (f : A -> bool) l l' : Permutation l l' -> Permutation (filter f l) (filter f l').
Proof.
  induction 1 as [|x l l' _ IH|x y l|l l' l'' _ IH1 _ IH2]; cbn [filter].
  - reflexivity.
  - destruct (f x); [constructor; exact IH|exact IH].
  - destruct (f x), (f y); try reflexivity. apply perm_swap.
  - etransitivity; eauto.
Qed.
