(** C10, part "Source": the translated merges / removeAt equal the hand models.  The hand models key a head at
    the start of a step, the Rust loops when the element leaves the iterator: [entered la lb o k] is that moment
    (both heads keyed, then [k] in state [mst la lb o]); one iteration leads from one [entered] to the next. *)
From Coq Require Import List ZArith Lia.
From JrV Require Import C10.Model C10.Proofs Gen.GenSets C10.ModelSource.
Import ListNotations.
Open Scope nat_scope.

Lemma sbind_assoc {X Y Z} (r : sres X) (f : X -> sres Y) (g : Y -> sres Z) :
  sbind (sbind r f) g = sbind r (fun x => sbind (f x) g).
Proof. destruct r; reflexivity. Qed.

Lemma sloop_S {St} f (body : St -> sres (option St)) s :
  sloop (S f) body s =
  sbind (body s) (fun n => match n with Some s' => sloop f body s' | None => SOk s end).
Proof. reflexivity. Qed.

Lemma sloop_stop {St} f (body : St -> sres (option St)) s : body s = SOk None -> sloop (S f) body s = SOk s.
Proof. intros H. rewrite sloop_S, H. reflexivity. Qed.

Lemma it_next_eq {X} (l : list X) : it_next l = (hd_error l, tl l).
Proof. destruct l; reflexivity. Qed.

Section Src.
  Context {A K : Type}.
  Variable keyf : A -> option K.
  Variable cmp : K -> K -> option comparison.

  (** the loop state of Gen/GenSets.v: a, b, av, bv, ak, bk, out *)
  Notation state := (list A * list A * option A * option A * option K * option K * list A)%type.

  (** [r], once the head of [l] (if any) has a defined key *)
  Definition guard {X} (l : list A) (r : sres X) : sres X := sbind (key_of keyf (hd_error l)) (fun _ => r).

  Lemma guard_cons {X} x l (r : sres X) : guard (x :: l) r = match keyf x with Some _ => r | None => SErr end.
  Proof. unfold guard. cbn. destruct (keyf x); reflexivity. Qed.

  Lemma guard_bind {X Y} l (r : sres X) (k : X -> sres Y) : sbind (guard l r) k = guard l (sbind r k).
  Proof. apply sbind_assoc. Qed.

  Lemma key_guard {X} l (g : option K -> sres X) :
    sbind (key_of keyf (hd_error l)) g = guard l (g (hkey keyf l)).
  Proof. destruct l as [|x l]; [reflexivity|]. unfold guard. cbn. destruct (keyf x); reflexivity. Qed.

  Definition entered {X} (la lb o : list A) (k : state -> sres X) : sres X :=
    guard la (guard lb (k (mst keyf la lb o))).

  Lemma entered_bind {X Y} la lb o (k : state -> sres X) (g : X -> sres Y) :
    sbind (entered la lb o k) g = entered la lb o (fun s => sbind (k s) g).
  Proof. unfold entered. rewrite !guard_bind. reflexivity. Qed.

  (** after a loop: the next loop, or the final `out` *)
  Definition then_loop {X} f body (k : state -> sres X) : state -> sres X :=
    fun '(r_a, r_b, r_av, r_bv, r_ak, r_bk, r_out) =>
      sbind (sloop f body (r_a, r_b, r_av, r_bv, r_ak, r_bk, r_out)) k.
  Definition out_of : state -> sres (list A) := fun '(_, _, _, _, _, _, r_out) => SOk r_out.

  Lemma then_loop_mst {X} f body (k : state -> sres X) la lb o :
    then_loop f body k (mst keyf la lb o) = sbind (sloop f body (mst keyf la lb o)) k.
  Proof. reflexivity. Qed.

  (** the models cons in front, the loops push to `out` *)
  Lemma out_cons o x (m : option (list A)) :
    option_map (app o) (r <- m ;; Some (x :: r)) = option_map (app (o ++ [x])) m.
  Proof. destruct m; cbn; [rewrite <- app_assoc|]; reflexivity. Qed.

  Section Drain.
    (** a loop copying one side out; [st l o]: its state when [l] (head included) is left of that side *)
    Variable body : state -> sres (option state).
    Variable st : list A -> list A -> state.
    Hypothesis stop : forall o, body (st [] o) = SOk None.
    Hypothesis step : forall x k l o, keyf x = Some k ->
      body (st (x :: l) o) = guard l (SOk (Some (st l (o ++ [x])))).

    Lemma drain_loop f : forall l o, length l < f ->
      guard l (sloop f body (st l o)) = sbind (of_opt (drain keyf l)) (fun r => SOk (st [] (o ++ r))).
    Proof.
      induction f as [|f IH]; intros l o L; [inversion L|].
      destruct l as [|x l].
      - rewrite sloop_stop by apply stop. cbn. rewrite app_nil_r. reflexivity.
      - rewrite guard_cons. cbn [drain]. destruct (keyf x) as [k|] eqn:E; [|reflexivity].
        rewrite sloop_S, (step _ _ _ _ E), guard_bind. cbn [sbind bind].
        rewrite IH by (cbn in L; lia).
        destruct (drain keyf l); cbn; [rewrite <- app_assoc|]; reflexivity.
    Qed.
  End Drain.

  Lemma drain_a_loop f l o : length l < f ->
    guard l (sloop f (gen_set_union_loop2 keyf) (mst keyf l [] o)) =
    sbind (of_opt (drain keyf l)) (fun r => SOk (mst keyf [] [] (o ++ r))).
  Proof.
    apply (drain_loop _ (fun l o => mst keyf l [] o)); [reflexivity|].
    intros x k l' o' E. unfold mst, gen_set_union_loop2. cbn [hkey hd_error tl]. rewrite E.
    cbn [sbind expect]. rewrite it_next_eq, key_guard. reflexivity.
  Qed.

  Lemma drain_b_loop f l o : length l < f ->
    guard l (sloop f (gen_set_union_loop3 keyf) (mst keyf [] l o)) =
    sbind (of_opt (drain keyf l)) (fun r => SOk (mst keyf [] [] (o ++ r))).
  Proof.
    apply (drain_loop _ (fun l o => mst keyf [] l o)); [reflexivity|].
    intros x k l' o' E. unfold mst, gen_set_union_loop3. cbn [hkey hd_error tl]. rewrite E.
    cbn [sbind expect]. rewrite it_next_eq, key_guard. reflexivity.
  Qed.

  Lemma union_step x a' y b' o kx ky : keyf x = Some kx -> keyf y = Some ky ->
    gen_set_union_loop1 keyf cmp (mst keyf (x :: a') (y :: b') o) =
    sbind (cmp_of cmp kx ky) (fun c =>
      match c with
      | Lt => entered a' (y :: b') (o ++ [x])
      | Gt => entered (x :: a') b' (o ++ [y])
      | Eq => entered a' b' (o ++ [x])
      end (fun s => SOk (Some s))).
  Proof.
    intros E Ey. unfold gen_set_union_loop1, mst at 1. cbn [hkey hd_error tl]. rewrite E, Ey.
    destruct (cmp_of cmp kx ky) as [c| | |]; [|reflexivity..].
    destruct c; cbn [sbind expect].
    - rewrite !it_next_eq, key_guard, key_guard. reflexivity.
    - rewrite it_next_eq, key_guard. unfold entered, mst. cbn [hkey hd_error tl]. rewrite guard_cons, Ey.
      reflexivity.
    - rewrite it_next_eq, key_guard. unfold entered, mst. cbn [hkey hd_error tl]. rewrite guard_cons, E.
      reflexivity.
  Qed.

  Definition union_rest f2 f3 : state -> sres (list A) :=
    then_loop f2 (gen_set_union_loop2 keyf) (then_loop f3 (gen_set_union_loop3 keyf) out_of).

  Lemma union_rest_nil_l f2 f3 lb o : 0 < f2 -> length lb < f3 ->
    entered [] lb o (union_rest f2 f3) = of_opt (option_map (app o) (drain keyf lb)).
  Proof.
    intros L2 L3. destruct f2; [inversion L2|]. unfold entered, union_rest.
    rewrite then_loop_mst, sloop_stop by reflexivity. cbn [sbind].
    rewrite then_loop_mst. change (guard [] ?r) with r. rewrite <- guard_bind, drain_b_loop by exact L3.
    destruct (drain keyf lb); reflexivity.
  Qed.

  Lemma union_rest_nil_r f2 f3 la o : length la < f2 -> 0 < f3 ->
    entered la [] o (union_rest f2 f3) = of_opt (option_map (app o) (drain keyf la)).
  Proof.
    intros L2 L3. destruct f3; [inversion L3|]. unfold entered, union_rest.
    rewrite then_loop_mst. change (guard [] ?r) with r. rewrite <- guard_bind, drain_a_loop by exact L2.
    destruct (drain keyf la); reflexivity.
  Qed.

  Lemma union_main f2 f3 : forall f la lb o,
    length la + length lb < f -> length la + length lb < f2 -> length la + length lb < f3 ->
    entered la lb o (fun s => sbind (sloop f (gen_set_union_loop1 keyf cmp) s) (union_rest f2 f3)) =
    of_opt (option_map (app o) (union_impl keyf cmp la lb)).
  Proof.
    induction f as [|f IH]; intros la lb o L L2 L3; [inversion L|]. unfold entered.
    destruct la as [|x a'].
    { rewrite sloop_stop, union_nil_l by reflexivity. apply union_rest_nil_l; lia. }
    destruct lb as [|y b'].
    { rewrite sloop_stop, union_nil_r.
      - apply union_rest_nil_r; cbn [length] in L2 |- *; lia.
      - cbn. destruct (keyf x); reflexivity. }
    rewrite union_impl_eq, !guard_cons.
    destruct (keyf x) as [kx|] eqn:E; [|reflexivity].
    destruct (keyf y) as [ky|] eqn:Ey; [|reflexivity].
    rewrite sloop_S, (union_step _ _ _ _ _ _ _ E Ey). unfold cmp_of. cbn [bind length] in L, L2, L3 |- *.
    destruct (cmp kx ky) as [[]|]; [| | |reflexivity]; cbn [sbind bind];
      rewrite !entered_bind; cbn [sbind]; rewrite IH, out_cons by (cbn [length]; lia); reflexivity.
  Qed.

  Lemma diff_step x a' y b' o kx ky : keyf x = Some kx -> keyf y = Some ky ->
    gen_set_diff_loop1 keyf cmp (mst keyf (x :: a') (y :: b') o) =
    sbind (cmp_of cmp kx ky) (fun c =>
      match c with
      | Lt => entered a' (y :: b') (o ++ [x])
      | Gt => entered (x :: a') b' o
      | Eq => entered a' b' o
      end (fun s => SOk (Some s))).
  Proof.
    intros E Ey. unfold gen_set_diff_loop1, mst at 1. cbn [hkey hd_error tl]. rewrite E, Ey.
    destruct (cmp_of cmp kx ky) as [c| | |]; [|reflexivity..].
    destruct c; cbn [sbind expect].
    - rewrite !it_next_eq, key_guard, key_guard. reflexivity.
    - rewrite it_next_eq, key_guard. unfold entered, mst. cbn [hkey hd_error tl]. rewrite guard_cons, Ey.
      reflexivity.
    - rewrite it_next_eq, key_guard. unfold entered, mst. cbn [hkey hd_error tl]. rewrite guard_cons, E.
      reflexivity.
  Qed.

  Definition diff_rest f2 : state -> sres (list A) := then_loop f2 (gen_set_diff_loop2 keyf) out_of.

  Lemma diff_rest_nil_l f2 lb o : 0 < f2 ->
    entered [] lb o (diff_rest f2) = of_opt (option_map (app o) (diff_impl keyf cmp [] lb)).
  Proof.
    intros L2. destruct f2; [inversion L2|]. unfold entered, diff_rest.
    rewrite then_loop_mst, sloop_stop by reflexivity.
    destruct lb as [|y b']; [|rewrite guard_cons; cbn; destruct (keyf y)]; cbn; rewrite ?app_nil_r; reflexivity.
  Qed.

  (** builtin_set_diff's second loop is builtin_set_union's, word for word *)
  Lemma diff_rest_nil_r f2 la o : length la < f2 ->
    entered la [] o (diff_rest f2) = of_opt (option_map (app o) (drain keyf la)).
  Proof.
    intros L2. unfold entered, diff_rest.
    rewrite then_loop_mst. change (guard [] ?r) with r. rewrite <- guard_bind.
    change (gen_set_diff_loop2 keyf) with (gen_set_union_loop2 keyf). rewrite drain_a_loop by exact L2.
    destruct (drain keyf la); reflexivity.
  Qed.

  Lemma diff_main f2 : forall f la lb o,
    length la + length lb < f -> length la + length lb < f2 ->
    entered la lb o (fun s => sbind (sloop f (gen_set_diff_loop1 keyf cmp) s) (diff_rest f2)) =
    of_opt (option_map (app o) (diff_impl keyf cmp la lb)).
  Proof.
    induction f as [|f IH]; intros la lb o L L2; [inversion L|]. unfold entered.
    destruct la as [|x a'].
    { rewrite sloop_stop by reflexivity. apply diff_rest_nil_l; lia. }
    destruct lb as [|y b'].
    { rewrite sloop_stop, diff_nil_r.
      - apply diff_rest_nil_r; cbn [length] in L2 |- *; lia.
      - cbn. destruct (keyf x); reflexivity. }
    rewrite diff_impl_eq, !guard_cons.
    destruct (keyf x) as [kx|] eqn:E; [|reflexivity].
    destruct (keyf y) as [ky|] eqn:Ey; [|reflexivity].
    rewrite sloop_S, (diff_step _ _ _ _ _ _ _ E Ey). unfold cmp_of. cbn [bind length] in L, L2 |- *.
    destruct (cmp kx ky) as [[]|]; [| | |reflexivity]; cbn [sbind bind];
      rewrite !entered_bind; cbn [sbind]; rewrite IH, ?out_cons by (cbn [length]; lia); reflexivity.
  Qed.

  (** builtin_remove_at's two slices *)
  Lemma arr_slice_to (l : list A) z :
    (0 <= z <= Z.of_nat (length l))%Z -> arr_slice None (Some z) l = firstn (Z.to_nat z) l.
  Proof.
    intros H. unfold arr_slice, slice_idx. rewrite (proj2 (Z.ltb_ge z 0)), Nat.min_l, Nat.sub_0_r by lia.
    destruct (Nat.leb_spec (Z.to_nat z) 0) as [Q|Q]; [|reflexivity].
    replace (Z.to_nat z) with 0 by lia. reflexivity.
  Qed.

  Lemma arr_slice_from (l : list A) z : (0 <= z)%Z -> arr_slice (Some z) None l = skipn (Z.to_nat z) l.
  Proof.
    intros H. unfold arr_slice, slice_idx. rewrite (proj2 (Z.ltb_ge z 0)) by lia.
    destruct (Nat.leb_spec (length l) (Nat.min (Z.to_nat z) (length l))) as [Q|Q].
    - rewrite skipn_all2 by lia. reflexivity.
    - rewrite Nat.min_l by lia. apply firstn_all2. rewrite skipn_length. lia.
  Qed.
End Src.
