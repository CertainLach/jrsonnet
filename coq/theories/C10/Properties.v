(** C10 — the property theorems; most helper lemmas are in Proofs.v.  Generic theorems quantify
    over every element type, key type, key function and comparison ([cmp_laws]). *)
From Coq Require Import List ZArith Bool Lia Sorted Permutation.
From JrV Require Import C10.Model C10.Proofs.
From JrV Require C08.Model.
Import ListNotations.

(** The merge loops of sets.rs follow the reference merges of std.jsonnet on all arguments,
    sorted or not, on which the key function is defined (the hypothesis on the comparison is
    not used). *)
Theorem C10_setops_follow_reference :
  forall (A K : Type) (keyf : A -> option K) (cmp : K -> K -> option comparison)
         (key : A -> K) (c : K -> K -> comparison) (a b : list A),
    keys_ok keyf key a -> keys_ok keyf key b -> cmp_ok cmp key c a b ->
    union_impl keyf cmp a b = union_spec keyf cmp a b /\
    inter_impl keyf cmp a b = inter_spec keyf cmp a b /\
    diff_impl keyf cmp a b = diff_spec keyf cmp a b.
Proof.
  intros A K keyf cmp key c a b Ka Kb _. repeat split.
  - exact (union_impl_spec keyf cmp key a b Ka Kb).
  - exact (inter_impl_spec keyf cmp key a b Ka Kb).
  - exact (diff_impl_spec keyf cmp key a b Ka Kb).
Qed.
Print Assumptions C10_setops_follow_reference.

(** On sets (strictly key-sorted lists), for every key function and total order on keys: the
    union is the set of a's elements and those of b whose key is not in a; intersection and
    difference are the elements of a whose key is / is not in b. *)
Theorem C10_setops_refine :
  forall (A K : Type) (keyf : A -> option K) (cmp : K -> K -> option comparison)
         (key : A -> K) (c : K -> K -> comparison) (a b : list A),
    cmp_laws c ->
    keys_ok keyf key a -> keys_ok keyf key b -> cmp_ok cmp key c a b ->
    strict_sorted key c a -> strict_sorted key c b ->
    (exists u, union_impl keyf cmp a b = Some u /\ strict_sorted key c u /\
               forall z, In z u <-> In z a \/ (In z b /\ key_in_b key c z a = false)) /\
    inter_impl keyf cmp a b = Some (filter (fun x => key_in_b key c x b) a) /\
    diff_impl keyf cmp a b = Some (filter (fun x => negb (key_in_b key c x b)) a).
Proof.
  intros A K keyf cmp key c a b L Ka Kb Hc Sa Sb. repeat split.
  - exists (union_pure key c a b). repeat split.
    + apply union_impl_pure; assumption.
    + apply union_pure_sorted; assumption.
    + apply union_pure_members; assumption.
    + apply union_pure_members; assumption.
  - rewrite (inter_impl_pure keyf cmp key c) by assumption. f_equal. apply inter_pure_filter; assumption.
  - rewrite (diff_impl_pure keyf cmp key c) by assumption. f_equal. apply diff_pure_filter; assumption.
Qed.
Print Assumptions C10_setops_refine.

(** intersection and difference are sets; a set is determined by its members *)
Theorem C10_set_results_are_sets :
  forall (A K : Type) (key : A -> K) (c : K -> K -> comparison) (p : A -> bool) (a : list A),
    strict_sorted key c a -> strict_sorted key c (filter p a).
Proof.
  intros A K key c p a. induction 1 as [|x l Hl IH Hx]; [constructor|].
  cbn [filter]. destruct (p x); [|assumption].
  constructor; [assumption|]. exact (incl_Forall (incl_filter p l) Hx).
Qed.
Print Assumptions C10_set_results_are_sets.

Theorem C10_set_determined_by_members :
  forall (A K : Type) (key : A -> K) (c : K -> K -> comparison) (l1 l2 : list A),
    cmp_laws c -> strict_sorted key c l1 -> strict_sorted key c l2 ->
    (forall z, In z l1 <-> In z l2) -> l1 = l2.
Proof.
  intros A K key c l1 l2 L. revert l2.
  assert (irr : forall x : A, c (key x) (key x) <> Lt) by (intros x; rewrite (law_refl c L); discriminate).
  induction l1 as [|x l1 IH]; intros l2 S1 S2 Hm.
  - destruct l2 as [|y l2]; [reflexivity|]. exfalso. apply (Hm y). simpl; auto.
  - destruct l2 as [|y l2]. { exfalso. apply (Hm x). simpl; auto. }
    inversion S1 as [|? ? S1' F1]; subst. inversion S2 as [|? ? S2' F2]; subst.
    rewrite Forall_forall in F1, F2.
    assert (x = y).
    { destruct (proj1 (Hm x) (or_introl eq_refl)) as [H|H]; [auto|].
      destruct (proj2 (Hm y) (or_introl eq_refl)) as [H'|H']; [auto|].
      exfalso. apply (irr x). exact (law_trans c L _ _ _ (F1 _ H') (F2 _ H)). }
    subst y. f_equal. apply IH; try assumption.
    intros z. split; intros Hz.
    + destruct (proj1 (Hm z) (or_intror Hz)) as [<-|H]; [|assumption].
      exfalso. exact (irr x (F1 _ Hz)).
    + destruct (proj2 (Hm z) (or_intror Hz)) as [<-|H]; [|assumption].
      exfalso. exact (irr x (F2 _ Hz)).
Qed.
Print Assumptions C10_set_determined_by_members.

(** The hypotheses of the two theorems above hold for [cmp_val] (evaluate_compare_op) and any
    key function whose keys on the arguments are numbers. *)
Theorem C10_setops_number_keys :
  forall (k : option fn) (a b : list val),
    num_keys k a -> num_keys k b ->
    strict_sorted (keyd k) cz a -> strict_sorted (keyd k) cz b ->
    union_impl (keyfn k) cmp_val a b = union_spec (keyfn k) cmp_val a b /\
    inter_impl (keyfn k) cmp_val a b = inter_spec (keyfn k) cmp_val a b /\
    diff_impl (keyfn k) cmp_val a b = diff_spec (keyfn k) cmp_val a b /\
    (exists u, union_impl (keyfn k) cmp_val a b = Some u /\ strict_sorted (keyd k) cz u /\
               forall z, In z u <-> In z a \/ (In z b /\ key_in_b (keyd k) cz z a = false)) /\
    inter_impl (keyfn k) cmp_val a b = Some (filter (fun x => key_in_b (keyd k) cz x b) a) /\
    diff_impl (keyfn k) cmp_val a b = Some (filter (fun x => negb (key_in_b (keyd k) cz x b)) a).
Proof.
  intros k a b Na Nb Sa Sb.
  pose proof (num_keys_ok k a Na) as Ka. pose proof (num_keys_ok k b Nb) as Kb.
  pose proof (num_keys_cmp k a b Na Nb) as Hc.
  destruct (C10_setops_follow_reference _ _ (keyfn k) cmp_val (keyd k) cz a b Ka Kb Hc) as [E1 [E2 E3]].
  destruct (C10_setops_refine _ _ (keyfn k) cmp_val (keyd k) cz a b cmp_laws_cz Ka Kb Hc Sa Sb) as [U [I D]].
  repeat split; assumption.
Qed.
Print Assumptions C10_setops_number_keys.
Example C10_setops_number_keys_nonvacuous :
  num_keys (Some FLen) [VStr []; VArr [VNum 5]; VStr [97%N; 98%N]] /\
  strict_sorted (keyd (Some FLen)) cz [VStr []; VArr [VNum 5]; VStr [97%N; 98%N]] /\
  union_impl (keyfn (Some FLen)) cmp_val [VStr []; VArr [VNum 5]; VStr [97%N; 98%N]] [VStr [98%N]; VArr [VNull; VNull; VNull]]
  = Some [VStr []; VArr [VNum 5]; VStr [97%N; 98%N]; VArr [VNull; VNull; VNull]].
Proof.
  repeat split.
  - repeat constructor; eexists; split; reflexivity.
  - repeat constructor.
Qed.

(** The binary search of std.setMember is membership by key on every set, as
    length(setInter([x], arr)) > 0; it never panics or runs out of fuel. *)
Theorem C10_setmember_refines :
  forall (A K : Type) (keyf : A -> option K) (cmp : K -> K -> option comparison)
         (key : A -> K) (c : K -> K -> comparison) (x : A) (arr : list A),
    cmp_laws c ->
    strict_sorted key c arr -> keyf x = Some (key x) -> keys_ok keyf key arr ->
    (forall e, In e arr -> cmp (key e) (key x) = Some (c (key e) (key x))) ->
    (forall e, In e arr -> cmp (key x) (key e) = Some (c (key x) (key e))) ->
    set_member_impl keyf cmp x arr = BOk (existsb (fun e => is_eq (c (key e) (key x))) arr) /\
    set_member_spec keyf cmp x arr = Some (existsb (fun e => is_eq (c (key e) (key x))) arr).
Proof.
  intros. split.
  - apply set_member_impl_correct; assumption.
  - apply set_member_spec_correct; assumption.
Qed.
Print Assumptions C10_setmember_refines.

(** The SPEC's sort (a stable `sort_by`) returns an ordered, stable permutation, for every total
    preorder. *)
Theorem C10_sort_perm_sorted_stable :
  forall (A : Type) (leb : A -> A -> bool),
    (forall x y, leb x y = true \/ leb y x = true) ->
    (forall x y z, leb x y = true -> leb y z = true -> leb x z = true) ->
    forall l,
      Permutation (isort leb l) l /\
      StronglySorted (fun x y => leb x y = true) (isort leb l) /\
      forall z, filter (equivb leb z) (isort leb l) = filter (equivb leb z) l.
Proof.
  intros A leb T Tr l. repeat split.
  - apply isort_perm.
  - apply isort_sorted; assumption.
  - intros z. apply isort_stable. assumption.
Qed.
Print Assumptions C10_sort_perm_sorted_stable.

(** ... and the result of ANY stable sort is the same list: modelling Rust's stable sorts by
    insertion sort loses nothing. *)
Theorem C10_stable_sort_unique :
  forall (A : Type) (leb : A -> A -> bool),
    (forall x y, leb x y = true \/ leb y x = true) ->
    (forall x y z, leb x y = true -> leb y z = true -> leb x z = true) ->
    forall l r,
      StronglySorted (fun x y => leb x y = true) r ->
      (forall z, filter (equivb leb z) r = filter (equivb leb z) l) ->
      r = isort leb l.
Proof.
  intros A leb T Tr l r Sr Hr.
  apply (stable_sorted_unique leb T); [assumption|apply isort_sorted; assumption|].
  intros z. rewrite Hr. symmetry. apply isort_stable. assumption.
Qed.
Print Assumptions C10_stable_sort_unique.

(** sort.rs: on the number or string fast path every two keys compare and the result is the
    stable sort by the general comparison. *)
Theorem C10_sort_fast_paths :
  forall (l ks : list val) (st : sort_type),
    get_sort_type STUnknown ks = Some st -> st = STNumber \/ st = STString ->
    all_comparable ks = true /\
    sort_keyed_impl l ks
    = Some (map fst (isort (fun p q : val * val => leb_val (snd p) (snd q)) (combine l ks))).
Proof. exact sort_fast_paths. Qed.
Print Assumptions C10_sort_fast_paths.

(** std.sort and std.set agree with the definition whenever the classifier does not send the
    keys to the comparator path. *)
Theorem C10_sort_refines_classified :
  forall k l,
    (forall ks, mapM (keyfn k) l = Some ks -> get_sort_type STUnknown ks <> Some STUnspec) ->
    sort_impl k l = sort_spec k l /\ set_impl k l = set_spec k l.
Proof.
  intros k l H. assert (E : sort_impl k l = sort_spec k l); [|split; [exact E|apply set_refines_of_sort, E]].
  unfold sort_impl, sort_spec. destruct (length l <=? 1); [reflexivity|].
  destruct (mapM (keyfn k) l) as [ks|] eqn:Ek; [|reflexivity]. cbn [bind].
  apply sort_keyed_cases. intros st Es [->| ->]; [destruct (H ks eq_refl Es)|].
  (* no key at all *)
  destruct (get_sort_type_some _ _ _ Es) as [_ ->]. destruct l; reflexivity.
Qed.
Print Assumptions C10_sort_refines_classified.
Example C10_sort_refines_classified_nonvacuous :
  (forall ks, mapM (keyfn (Some FLen)) [VStr [97%N; 98%N]; VArr []; VStr [98%N]] = Some ks ->
              get_sort_type STUnknown ks <> Some STUnspec) /\
  sort_impl (Some FLen) [VStr [97%N; 98%N]; VArr []; VStr [98%N]] = Some [VArr []; VStr [98%N]; VStr [97%N; 98%N]].
Proof. split; [|reflexivity]. intros ks H. injection H as <-. discriminate. Qed.

(** the comparator path: when every comparison the sort can make succeeds it is the same sort *)
Theorem C10_sort_fallible_path :
  forall (A : Type) (cmpf : A -> A -> option comparison) (leb : A -> A -> bool) (l : list A),
    (forall x y, In x l -> In y l -> exists c, cmpf x y = Some c /\ leb x y = leb_cmp c) ->
    isort_f cmpf l = Some (isort leb l).
Proof. intros A cmpf leb l H. apply isort_f_ok_ordered, ForallPairs_ForallOrdPairs. exact H. Qed.
Print Assumptions C10_sort_fallible_path.

(** uniq: comparing with the previous element (sort.rs) or with the last kept element
    (std.jsonnet) is the same for every equivalence on keys *)
Theorem C10_uniq_refines :
  forall (A K : Type) (eqk : K -> K -> bool),
    (forall x, eqk x x = true) -> (forall x y, eqk x y = eqk y x) ->
    (forall x y z, eqk x y = true -> eqk y z = true -> eqk x z = true) ->
    forall l : list (A * K), uniq_impl eqk l = uniq_spec eqk l.
Proof. intros. apply uniq_impl_spec; assumption. Qed.
Print Assumptions C10_uniq_refines.

(** val::equals on the value universe is an equivalence (so the above applies to std.uniq) *)
Theorem C10_equals_equivalence :
  (forall v, eq_val v v = true) /\ (forall a b, eq_val a b = eq_val b a) /\
  (forall a b c, eq_val a b = true -> eq_val b c = true -> eq_val a c = true).
Proof. repeat split; [apply eq_val_refl|apply eq_val_sym|apply eq_val_trans]. Qed.
Print Assumptions C10_equals_equivalence.

(** set = uniq . sort in both models: the native std.set refines the definition wherever the
    native sort does *)
Theorem C10_set_is_uniq_sort :
  forall k l,
    set_spec k l = (s <- sort_spec k l ;; uniq_spec_v k s) /\
    (sort_impl k l = sort_spec k l -> set_impl k l = set_spec k l).
Proof. intros k l. split; [reflexivity|apply set_refines_of_sort]. Qed.
Print Assumptions C10_set_is_uniq_sort.

(** std.flattenArrays: the balanced tree of concatenations is the concatenation *)
Theorem C10_flatten_refines :
  forall (A : Type) (vs : list (list A)), flatten_impl vs = Some (concat vs).
Proof. intros. apply flatten_impl_concat. Qed.
Print Assumptions C10_flatten_refines.

(** std.join / std.lines: the `first`-flag loop is intercalation of the non-null pieces *)
Theorem C10_join_refines :
  forall (A : Type) (sep : list A) (items : list (option (list A))),
    join_impl sep items = intercalate sep (somes items).
Proof. intros. apply join_impl_spec. Qed.
Print Assumptions C10_join_refines.

(** std.remove removes the first occurrence; its removeAt step is C08's (C08_remove_at_spec) *)
Theorem C10_remove_refines :
  forall (A : Type) (eqa : A -> A -> bool) (l : list A) (x : A) (at_ : Z),
    remove_impl eqa l x = remove_spec eqa l x /\
    remove_at_impl l at_ = C08.Model.remove_at_spec l at_.
Proof. intros. split; [apply remove_impl_spec|apply remove_at_impl_spec]. Qed.
Print Assumptions C10_remove_refines.

(** evaluate_compare_op (numbers, strings, arrays; everything else an error) is the restriction
    of the total order [ctot], which satisfies the laws the set theorems ask for. *)
Theorem C10_compare_extends_to_total_order :
  cmp_laws ctot /\ forall a b c, cmp_val a b = Some c -> ctot a b = c.
Proof. split; [exact cmp_laws_ctot|exact ctot_extends]. Qed.
Print Assumptions C10_compare_extends_to_total_order.

(** std.sort / std.set wherever the definition determines the outcome (all keys comparable, a
    key evaluation fails, or some key compares with no other): all three paths of sort.rs. *)
Theorem C10_sort_refines :
  forall k l, sort_determinate k l = true ->
    sort_impl k l = sort_spec k l /\ set_impl k l = set_spec k l.
Proof. exact sort_refines_determinate. Qed.
Print Assumptions C10_sort_refines.

(** END-TO-END: for every call of the 35 functions whose outcome the documented definition
    determines ([judge c = JSpec]), the IMPL-MODEL outcome (value or error) is the SPEC outcome. *)
Theorem C10_calls_refine :
  forall c, judge c = JSpec -> impl_call c = spec_call c.
Proof.
  intros c H. destruct (simple_call c) eqn:Es; [apply simple_calls_refine; exact Es|].
  destruct c; try discriminate Es.
  - (* sort *) destruct arr; try reflexivity. cbn [judge] in H.
    destruct (sort_determinate k l) eqn:Ed; [|discriminate].
    unfold impl_call, spec_call. cbn [run as_arr bind impl_algos spec_algos a_sort].
    rewrite (proj1 (sort_refines_determinate k l Ed)). reflexivity.
  - (* set *) destruct arr; try reflexivity. cbn [judge] in H.
    destruct (sort_determinate k l) eqn:Ed; [|discriminate].
    unfold impl_call, spec_call. cbn [run as_arr bind impl_algos spec_algos a_set].
    rewrite (proj2 (sort_refines_determinate k l Ed)). reflexivity.
  - (* setMember *) destruct arr; try reflexivity. cbn [judge] in H.
    destruct (is_set k l && keys_total k (x :: l)) eqn:Ej; [|discriminate].
    apply setmember_call_refines. exact Ej.
  - cbn [judge] in H. destruct (sets_ok k a b) eqn:Ej; [|discriminate]. apply (setops_calls_refine k a b Ej).
  - cbn [judge] in H. destruct (sets_ok k a b) eqn:Ej; [|discriminate]. apply (setops_calls_refine k a b Ej).
  - cbn [judge] in H. destruct (sets_ok k a b) eqn:Ej; [|discriminate]. apply (setops_calls_refine k a b Ej).
Qed.
Print Assumptions C10_calls_refine.

(** ... and for the other 29 functions on ALL arguments.  For 23 of them the two models are the
    same definition ([reflexivity]); uniq, remove, removeAt, flattenArrays, join and lines rest
    on a lemma. *)
Theorem C10_simple_calls_refine :
  forall c, simple_call c = true -> impl_call c = spec_call c.
Proof. exact simple_calls_refine. Qed.
Print Assumptions C10_simple_calls_refine.

Example C10_calls_refine_nonvacuous :
  judge (CSort (VArr [VArr [VNum 1; VNull]; VArr [VNum 0]; VArr [VNum 2]]) None) = JSpec /\
  impl_call (CSort (VArr [VArr [VNum 1; VNull]; VArr [VNum 0]; VArr [VNum 2]]) None)
  = Some (OVal (VArr [VArr [VNum 0]; VArr [VNum 1; VNull]; VArr [VNum 2]])) /\
  judge (CSort (VArr [VArr [VNum 1]; VNull; VArr [VNum 2]]) None) = JSpec /\
  impl_call (CSort (VArr [VArr [VNum 1]; VNull; VArr [VNum 2]]) None) = None /\
  judge (CSetMember (VArr [VNum 7; VNum 9]) (VArr [VArr [VNum 1]; VArr [VNum 7]]) (Some FFirst)) = JSpec /\
  impl_call (CSetMember (VArr [VNum 7; VNum 9]) (VArr [VArr [VNum 1]; VArr [VNum 7]]) (Some FFirst))
  = Some (OVal (VBool true)) /\
  judge (CSetDiff (VArr [VArr [VNum 1]; VArr [VNum 1; VNum 2]]) (VArr [VArr [VNum 1; VNum 2]]) None) = JSpec /\
  impl_call (CSetDiff (VArr [VArr [VNum 1]; VArr [VNum 1; VNum 2]]) (VArr [VArr [VNum 1; VNum 2]]) None)
  = Some (OVal (VArr [VArr [VNum 1]])).
Proof. repeat split; reflexivity. Qed.

(** the monadic folds split over [++] *)
Theorem C10_fold_laws :
  forall f l1 l2 acc,
    foldl_m f (l1 ++ l2) acc = (a <- foldl_m f l1 acc ;; foldl_m f l2 a) /\
    foldr_m f (l1 ++ l2) acc = (a <- foldr_m f l2 acc ;; foldr_m f l1 a).
Proof.
  intros f l1 l2. induction l1 as [|x l1 IH]; intros acc; split; try reflexivity.
  - cbn. destruct (foldr_m f l2 acc); reflexivity.
  - cbn [app foldl_m]. destruct (apply2 f acc x); [|reflexivity]. cbn [bind]. apply IH.
  - cbn [app foldr_m]. rewrite (proj2 (IH acc)). destruct (foldr_m f l2 acc); reflexivity.
Qed.
Print Assumptions C10_fold_laws.

(** the hypotheses are satisfiable *)
Definition zc (x y : Z) : option comparison := Some (Z.compare x y).
Example C10_setops_nonvacuous :
  cmp_laws Z.compare /\
  keys_ok (@Some Z) id [1; 3; 5]%Z /\ keys_ok (@Some Z) id [2; 3; 6]%Z /\
  cmp_ok zc id Z.compare [1; 3; 5]%Z [2; 3; 6]%Z /\
  strict_sorted id Z.compare [1; 3; 5]%Z /\ strict_sorted id Z.compare [2; 3; 6]%Z /\
  union_impl (@Some Z) zc [1; 3; 5]%Z [2; 3; 6]%Z = Some [1; 2; 3; 5; 6]%Z /\
  inter_impl (@Some Z) zc [1; 3; 5]%Z [2; 3; 6]%Z = Some [3]%Z /\
  diff_impl (@Some Z) zc [1; 3; 5]%Z [2; 3; 6]%Z = Some [1; 5]%Z /\
  set_member_impl (@Some Z) zc 5%Z [1; 3; 5]%Z = BOk true.
Proof.
  split; [apply cmp_laws_Z|].
  repeat split; try (repeat constructor; fail); try reflexivity.
Qed.
Example C10_sort_nonvacuous :
  let leb := fun p q : Z * Z => (snd p <=? snd q)%Z in
  (forall x y, leb x y = true \/ leb y x = true) /\
  (forall x y z, leb x y = true -> leb y z = true -> leb x z = true) /\
  isort leb [(1, 2); (2, 1); (3, 2); (4, 1)]%Z = [(2, 1); (4, 1); (1, 2); (3, 2)]%Z.
Proof.
  cbv zeta. repeat split.
  - intros x y. rewrite !Z.leb_le. lia.
  - intros x y z. rewrite !Z.leb_le. lia.
Qed.
Example C10_uniq_nonvacuous :
  uniq_impl Z.eqb [(10, 1); (11, 1); (12, 2); (13, 1)]%Z = [10; 12; 13]%Z /\
  uniq_impl_v (Some FFirst) [VArr [VNum 1]; VArr [VNum 1; VNum 2]; VArr [VNum 0]]
  = Some [VArr [VNum 1]; VArr [VNum 0]].
Proof. split; reflexivity. Qed.
Example C10_fast_path_nonvacuous :
  get_sort_type STUnknown [VNum 2; VNegZero; VNum 1] = Some STNumber /\
  get_sort_type STUnknown [VStr [98%N]; VStr [97%N]] = Some STString /\
  get_sort_type STUnknown [VNum 2; VStr []] = None /\
  sort_impl None [VNum 2; VNegZero; VNum 0; VNum 1] = Some [VNegZero; VNum 0; VNum 1; VNum 2].
Proof. repeat split; reflexivity. Qed.
Example C10_calls_nonvacuous :
  simple_call (CJoin (VStr [44%N]) (VArr [VStr [97%N]; VNull; VStr [98%N]])) = true /\
  impl_call (CJoin (VStr [44%N]) (VArr [VStr [97%N]; VNull; VStr [98%N]]))
  = Some (OVal (VStr [97%N; 44%N; 98%N])) /\
  impl_call (CFlattenArrays (VArr [VArr [VNum 1]; VArr []; VArr [VNum 2; VNum 3]]))
  = Some (OVal (VArr [VNum 1; VNum 2; VNum 3])).
Proof. repeat split; reflexivity. Qed.
