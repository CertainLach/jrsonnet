(** C10, part "Source": the merge loops and removeAt as translated from sets.rs / arrays.rs on this run
    (Gen/GenSets.v, by translator/gens/setops.py) equal the hand models of C10/Model.v on all inputs. *)
From Coq Require Import List ZArith Lia.
From JrV Require Import C10.Model C10.Proofs C10.Properties Gen.GenSets C10.ModelSource C10.ProofsSource.
From JrV Require C08.Model.
Import ListNotations.

(** builtin_set_union as written = union_impl, also where keys or comparisons fail; so the translated loops
    never panic (`expect`) and never need more than 1 + |a| + |b| iterations. *)
Theorem C10_model_is_translated_source_union :
  forall (A K : Type) (keyf : A -> option K) (cmp : K -> K -> option comparison) (a b : list A),
    gen_set_union keyf cmp a b = of_opt (union_impl keyf cmp a b).
Proof.
  intros A K keyf cmp a b. unfold gen_set_union, it_of. rewrite !it_next_eq, (key_guard keyf), (key_guard keyf).
  pose proof (Nat.lt_succ_diag_r (length a + length b)) as L.
  etransitivity; [exact (union_main keyf cmp _ _ _ a b [] L L L)|].
  destruct (union_impl keyf cmp a b); reflexivity.
Qed.
Print Assumptions C10_model_is_translated_source_union.

Theorem C10_model_is_translated_source_diff :
  forall (A K : Type) (keyf : A -> option K) (cmp : K -> K -> option comparison) (a b : list A),
    gen_set_diff keyf cmp a b = of_opt (diff_impl keyf cmp a b).
Proof.
  intros A K keyf cmp a b. unfold gen_set_diff, it_of. rewrite !it_next_eq, (key_guard keyf), (key_guard keyf).
  pose proof (Nat.lt_succ_diag_r (length a + length b)) as L.
  etransitivity; [exact (diff_main keyf cmp _ _ a b [] L L)|].
  destruct (diff_impl keyf cmp a b); reflexivity.
Qed.
Print Assumptions C10_model_is_translated_source_diff.

(** builtin_remove_at as written (i32 index, `as usize`, checked `at + 1`, ArrValue::slice clamps) = remove_at_impl
    for arrays shorter than 2^31 (beyond: `at + 1`, unchecked in release builds, can overflow). *)
Theorem C10_model_is_translated_source_remove_at :
  forall (A : Type) (l : list A) (at_ : Z),
    i32_range at_ -> (Z.of_nat (length l) < 2 ^ 31)%Z ->
    gen_remove_at l at_ = SOk (remove_at_impl l at_).
Proof.
  intros A l at_. unfold i32_range, gen_remove_at, remove_at_impl, len_z, as_usize, i32_add. intros R Hl.
  destruct (Z.ltb_spec at_ 0) as [N|N]; [reflexivity|].
  rewrite Z.mod_small by lia. cbn [orb].
  destruct (Z.leb_spec (Z.of_nat (length l)) at_) as [G|G]; [reflexivity|].
  rewrite (proj2 (Z.leb_le _ (at_ + 1))), (proj2 (Z.leb_le (at_ + 1) _)) by lia. cbn [andb sbind].
  rewrite arr_slice_to, arr_slice_from by lia. reflexivity.
Qed.
Print Assumptions C10_model_is_translated_source_remove_at.

(** Corollary: on sets the translated union and difference are the std.jsonnet definitions. *)
Theorem C10_translated_setops_refine :
  forall (A K : Type) (keyf : A -> option K) (cmp : K -> K -> option comparison)
         (key : A -> K) (c : K -> K -> comparison) (a b : list A),
    cmp_laws c ->
    keys_ok keyf key a -> keys_ok keyf key b -> cmp_ok cmp key c a b ->
    strict_sorted key c a -> strict_sorted key c b ->
    (exists u, gen_set_union keyf cmp a b = SOk u /\ strict_sorted key c u /\
               forall z, In z u <-> In z a \/ (In z b /\ key_in_b key c z a = false)) /\
    gen_set_diff keyf cmp a b = SOk (filter (fun x => negb (key_in_b key c x b)) a).
Proof.
  intros A K keyf cmp key c a b L Ka Kb Hc Sa Sb.
  destruct (C10_setops_refine A K keyf cmp key c a b L Ka Kb Hc Sa Sb) as [[u [U R]] [_ D]].
  split.
  - exists u. rewrite C10_model_is_translated_source_union, U. split; [reflexivity|exact R].
  - rewrite C10_model_is_translated_source_diff, D. reflexivity.
Qed.
Print Assumptions C10_translated_setops_refine.

(** Corollary: the translated merges follow the reference merges of std.jsonnet, sorted arguments or not. *)
Theorem C10_translated_setops_follow_reference :
  forall (A K : Type) (keyf : A -> option K) (cmp : K -> K -> option comparison)
         (key : A -> K) (c : K -> K -> comparison) (a b : list A),
    keys_ok keyf key a -> keys_ok keyf key b -> cmp_ok cmp key c a b ->
    gen_set_union keyf cmp a b = of_opt (union_spec keyf cmp a b) /\
    gen_set_diff keyf cmp a b = of_opt (diff_spec keyf cmp a b).
Proof.
  intros A K keyf cmp key c a b Ka Kb Hc.
  destruct (C10_setops_follow_reference A K keyf cmp key c a b Ka Kb Hc) as [U [_ D]].
  rewrite C10_model_is_translated_source_union, C10_model_is_translated_source_diff, U, D. split; reflexivity.
Qed.
Print Assumptions C10_translated_setops_follow_reference.

(** Corollary: the translated removeAt is C08's remove_at_spec. *)
Theorem C10_translated_remove_at_spec :
  forall (A : Type) (l : list A) (at_ : Z),
    i32_range at_ -> (Z.of_nat (length l) < 2 ^ 31)%Z ->
    gen_remove_at l at_ = SOk (C08.Model.remove_at_spec l at_).
Proof. intros. rewrite C10_model_is_translated_source_remove_at by assumption. rewrite remove_at_impl_spec. reflexivity. Qed.
Print Assumptions C10_translated_remove_at_spec.

(** Non-vacuity: runs of the translated text (a key that fails; ties). *)
Definition zk : Z -> option Z := fun z => if (z =? 99)%Z then None else Some (z / 10)%Z.
Definition zc : Z -> Z -> option comparison := fun x y => Some (Z.compare x y).
Example C10_translated_examples :
  gen_set_union zk zc [10; 30; 50]%Z [20; 31; 60; 70]%Z = SOk [10; 20; 30; 50; 60; 70]%Z /\
  gen_set_diff zk zc [10; 30; 50; 80]%Z [20; 31; 60]%Z = SOk [10; 50; 80]%Z /\
  gen_set_inter zk zc [10; 30; 50]%Z [20; 31; 50]%Z = SOk [30; 50]%Z /\
  gen_set_union zk zc [10; 99]%Z [20]%Z = SErr /\
  gen_set_diff zk zc []%Z [99]%Z = SErr /\
  gen_remove_at [1; 2; 3]%Z 1 = SOk [1; 3]%Z /\ gen_remove_at [1; 2; 3]%Z 3 = SOk [1; 2; 3]%Z /\
  gen_remove_at [1; 2; 3]%Z (-1) = SOk [1; 2; 3]%Z /\ gen_remove_at [1; 2; 3]%Z 0 = SOk [2; 3]%Z /\
  gen_remove_at [1; 2; 3]%Z 2 = SOk [1; 2]%Z /\
  i32_range 2.
Proof. repeat split; try reflexivity; unfold i32_range; lia. Qed.
