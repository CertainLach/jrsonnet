(** C10, part "More" — lemmas about C10/ModelMore.v (lazy elements).  The definitions of std.jsonnet walk an
    array by index ([*_aux arr n idx]), the Rust loops by iterator (structural recursion on the list); each
    [*_aux_app] lemma compares the two at position [length pre] of the array [pre ++ l]. *)
From Coq Require Import List ZArith Bool Lia.
From JrV Require Import C10.Model C10.Proofs C10.ModelMore.
Import ListNotations.
Open Scope nat_scope.

Lemma nth_error_app_pre {X} (pre : list X) t r : nth_error (pre ++ t :: r) (length pre) = Some t.
Proof. rewrite nth_error_app2 by lia. rewrite Nat.sub_diag. reflexivity. Qed.
Lemma app_cons_assoc {X} (pre : list X) t r : pre ++ t :: r = (pre ++ [t]) ++ r.
Proof. rewrite <- app_assoc. reflexivity. Qed.
Lemma length_snoc {X} (pre : list X) t : length (pre ++ [t]) = S (length pre).
Proof. apply last_length. Qed.

Section AnyAllP.
  Context {E : Type}.
  Variable as_bool : E -> option bool.
  Lemma any_aux_app l : forall pre,
    any_aux as_bool (pre ++ l) (length l) (length pre) = any_impl as_bool l.
  Proof.
    induction l as [|t r IH]; intros pre; [reflexivity|].
    cbn [length any_aux any_impl].
    rewrite nth_error_app_pre, app_cons_assoc, <- (length_snoc pre t), IH. reflexivity.
  Qed.
  Lemma any_impl_spec l : any_impl as_bool l = any_spec as_bool l.
  Proof. symmetry. apply (any_aux_app l []). Qed.
  Lemma all_aux_app l : forall pre,
    all_aux as_bool (pre ++ l) (length l) (length pre) = all_impl as_bool l.
  Proof.
    induction l as [|t r IH]; intros pre; [reflexivity|].
    cbn [length all_aux all_impl].
    rewrite nth_error_app_pre, app_cons_assoc, <- (length_snoc pre t), IH. reflexivity.
  Qed.
  Lemma all_impl_spec l : all_impl as_bool l = all_spec as_bool l.
  Proof. symmetry. apply (all_aux_app l []). Qed.
End AnyAllP.

Section ScansP.
  Context {A : Type}.
  Variable eqa : A -> A -> option bool.

  Lemma count_impl_acc l x : forall c,
    count_impl eqa l x c = (n <- count_spec eqa l x ;; Some (c + n)).
  Proof.
    unfold count_spec. induction l as [|t r IH]; intros c.
    - cbn. f_equal. lia.
    - cbn [count_impl filter_strict]. destruct (eqt eqa x t) as [b|]; [|reflexivity]. cbn [bind].
      rewrite IH. destruct (filter_strict (eqt eqa x) r) as [ys|]; [|reflexivity]. cbn [bind].
      destruct b; cbn [length]; f_equal; lia.
  Qed.
  Lemma count_impl_spec l x : count_impl eqa l x 0 = count_spec eqa l x.
  Proof. rewrite count_impl_acc. destruct (count_spec eqa l x); reflexivity. Qed.

  Lemma filter_strict_defined {X} (p : X -> option bool) l :
    forallb (fun x => defined (p x)) l = true -> exists ys, filter_strict p l = Some ys.
  Proof.
    induction l as [|x r IH]; intros H; [eexists; reflexivity|].
    cbn in H. apply andb_true_iff in H. destruct H as [H1 H2]. destruct (IH H2) as [ys E].
    cbn. destruct (p x) as [b|]; [|discriminate]. rewrite E. eexists. reflexivity.
  Qed.
  Lemma existsb_neg_forallb {X} (q : X -> bool) l :
    existsb (fun x => negb (q x)) l = false -> forallb q l = true.
  Proof.
    induction l as [|x r IH]; [reflexivity|]. cbn. intros H. apply orb_false_iff in H. destruct H as [H1 H2].
    apply negb_false_iff in H1. rewrite H1, (IH H2). reflexivity.
  Qed.

  Lemma member_restricted l x :
    err_after_match eqa l x = false -> member_impl eqa l x = member_spec eqa l x.
  Proof.
    unfold member_spec, count_spec. induction l as [|t r IH]; intros H; [reflexivity|].
    cbn [member_impl filter_strict err_after_match] in *.
    destruct (eqt eqa x t) as [b|]; [|reflexivity]. cbn [bind]. destruct b.
    - apply existsb_neg_forallb in H. destruct (filter_strict_defined _ _ H) as [ys E]. rewrite E. reflexivity.
    - rewrite (IH H). destruct (filter_strict (eqt eqa x) r); reflexivity.
  Qed.

  Lemma contains_impl_spec l x : contains_impl eqa l x = contains_spec eqa l x.
  Proof.
    unfold contains_spec, contains_impl. rewrite <- any_impl_spec.
    induction l as [|t r IH]; [reflexivity|]. cbn [member_impl map any_impl].
    destruct (eqt eqa x t) as [b|]; [|reflexivity]. cbn [bind]. destruct b; [reflexivity|]. exact IH.
  Qed.

  Lemma find_aux_app l x : forall pre,
    filter_strict (fun i => match nth_error (pre ++ l) i with Some t => eqt eqa x t | None => None end)
                  (seq (length pre) (length l))
    = find_impl eqa l x (length pre).
  Proof.
    induction l as [|t r IH]; intros pre; [reflexivity|].
    cbn [length seq filter_strict find_impl].
    rewrite nth_error_app_pre, app_cons_assoc, <- (length_snoc pre t), IH. reflexivity.
  Qed.
  Lemma find_impl_spec l x : find_impl eqa l x 0 = find_spec eqa l x.
  Proof. symmetry. apply (find_aux_app l x []). Qed.

  Lemma find_impl_defined l x : forall i,
    forallb (fun t => defined (eqt eqa x t)) l = true -> exists out, find_impl eqa l x i = Some out.
  Proof.
    induction l as [|t r IH]; intros i H; [eexists; reflexivity|].
    cbn in H. apply andb_true_iff in H. destruct H as [H1 H2]. destruct (IH (S i) H2) as [out E].
    cbn [find_impl]. destruct (eqt eqa x t) as [b|]; [|discriminate]. rewrite E. eexists. reflexivity.
  Qed.
  Lemma remove_scan_find l x : forall i,
    err_after_match eqa l x = false ->
    match remove_scan eqa l x i with
    | None => find_impl eqa l x i = None
    | Some None => find_impl eqa l x i = Some []
    | Some (Some j) => exists rest, find_impl eqa l x i = Some (j :: rest)
    end.
  Proof.
    induction l as [|t r IH]; intros i H; [reflexivity|].
    cbn [remove_scan find_impl err_after_match] in *.
    destruct (eqt eqa x t) as [b|]; [|reflexivity]. cbn [bind]. destruct b.
    - apply existsb_neg_forallb in H. destruct (find_impl_defined r x (S i) H) as [out E]. rewrite E.
      eexists. reflexivity.
    - specialize (IH (S i) H). destruct (remove_scan eqa r x (S i)) as [[j|]|].
      + destruct IH as [rest E]. rewrite E. eexists. reflexivity.
      + rewrite IH. reflexivity.
      + rewrite IH. reflexivity.
  Qed.
  Lemma remove_restricted l x :
    err_after_match eqa l x = false -> remove_impl_l eqa l x = remove_spec_l eqa l x.
  Proof.
    intros H. unfold remove_impl_l, remove_spec_l. rewrite <- find_impl_spec.
    pose proof (remove_scan_find l x 0 H) as R. destruct (remove_scan eqa l x 0) as [[j|]|].
    - destruct R as [rest E]. rewrite E. cbn [bind]. rewrite remove_at_impl_spec. reflexivity.
    - rewrite R. reflexivity.
    - rewrite R. reflexivity.
  Qed.

  Lemma eq_aux_app a : forall b pa pb,
    length a = length b -> length pa = length pb ->
    eq_aux eqa (pa ++ a) (pb ++ b) (length a) (length pa) = eq_loop eqa a b.
  Proof.
    induction a as [|ta a IH]; intros [|tb b] pa pb L P; try discriminate; [reflexivity|].
    cbn [length eq_aux eq_loop]. rewrite nth_error_app_pre, P, nth_error_app_pre, <- P.
    rewrite (app_cons_assoc pa), (app_cons_assoc pb), <- (length_snoc pa ta), IH; [reflexivity| |].
    - cbn in L. lia.
    - rewrite !length_snoc. lia.
  Qed.
  Lemma arr_equals_impl_spec a b : arr_equals_impl eqa a b = arr_equals_spec eqa a b.
  Proof.
    unfold arr_equals_impl, arr_equals_spec. destruct (length a =? length b) eqn:E; [|reflexivity].
    cbn [negb]. apply Nat.eqb_eq in E. symmetry. apply (eq_aux_app a b [] []); auto.
  Qed.
  Lemma eq_loop_equals a b : length a = length b -> eq_loop eqa a b = arr_equals_spec eqa a b.
  Proof.
    intros L. rewrite <- arr_equals_impl_spec. unfold arr_equals_impl.
    rewrite (proj2 (Nat.eqb_eq _ _) L). reflexivity.
  Qed.
  Lemma starts_with_impl_spec a b : starts_with_impl eqa a b = starts_with_spec eqa a b.
  Proof.
    unfold starts_with_impl, starts_with_spec. destruct (length a <? length b) eqn:E; [reflexivity|].
    apply Nat.ltb_ge in E. destruct (length b =? length a) eqn:E2.
    - apply Nat.eqb_eq in E2. rewrite E2, firstn_all. apply arr_equals_impl_spec.
    - apply eq_loop_equals. rewrite firstn_length. lia.
  Qed.
  Lemma ends_with_impl_spec a b : ends_with_impl eqa a b = ends_with_spec eqa a b.
  Proof.
    unfold ends_with_impl, ends_with_spec. destruct (length a <? length b) eqn:E; [reflexivity|].
    apply Nat.ltb_ge in E. destruct (length b =? length a) eqn:E2.
    - apply Nat.eqb_eq in E2. rewrite E2, Nat.sub_diag. cbn [skipn]. apply arr_equals_impl_spec.
    - apply eq_loop_equals. rewrite skipn_length. lia.
  Qed.
End ScansP.

Section FoldsP.
  Context {A B : Type}.
  Variable fl : B -> option A -> option B.
  Variable fr : option A -> B -> option B.

  Lemma foldl_aux_app l : forall pre acc,
    foldl_aux fl (pre ++ l) (length l) (length pre) acc = foldl_impl fl l acc.
  Proof.
    induction l as [|t r IH]; intros pre acc; [reflexivity|].
    cbn [length foldl_aux foldl_impl]. rewrite nth_error_app_pre.
    destruct (fl acc t) as [a|]; [|reflexivity]. cbn [bind].
    rewrite app_cons_assoc, <- (length_snoc pre t). apply IH.
  Qed.
  Lemma foldl_general l acc : foldl_impl fl l acc = foldl_spec fl l acc.
  Proof. symmetry. apply (foldl_aux_app l [] acc). Qed.

  Definition rstep (o : option B) (t : option A) : option B := a <- o ;; fr t a.
  Lemma fold_left_rstep_none l : fold_left rstep l None = None.
  Proof. induction l; [reflexivity|exact IHl]. Qed.
  Lemma foldr_aux_app l : forall post acc,
    foldr_aux fr (l ++ post) (length l) acc = fold_left rstep (rev l) (Some acc).
  Proof.
    induction l as [|t l IH] using rev_ind; intros post acc; [reflexivity|].
    rewrite length_snoc, rev_app_distr. cbn [rev app foldr_aux fold_left].
    rewrite <- app_assoc. cbn [app]. rewrite nth_error_app_pre.
    cbn [rstep bind]. destruct (fr t acc) as [a|].
    - cbn [bind]. apply (IH (t :: post) a).
    - cbn [bind]. rewrite fold_left_rstep_none. reflexivity.
  Qed.
  Lemma foldr_general l acc : foldr_impl fr l acc = foldr_spec fr l acc.
  Proof.
    unfold foldr_impl, foldr_spec. symmetry.
    pose proof (foldr_aux_app l [] acc) as H. rewrite app_nil_r in H. exact H.
  Qed.

  Lemma has_failing_in (l : list (option A)) : has_failing l = false -> ~ In None l.
  Proof.
    unfold has_failing. induction l as [|t r IH]; intros H I; [exact I|].
    cbn in H. apply orb_false_iff in H. destruct H as [H1 H2]. destruct I as [->|I]; [discriminate|].
    exact (IH H2 I).
  Qed.
  Lemma has_failing_somes (l : list (option A)) : has_failing l = false -> exists vs, l = map (@Some A) vs.
  Proof.
    unfold has_failing. induction l as [|t r IH]; intros H; [exists []; reflexivity|].
    cbn in H. apply orb_false_iff in H. destruct H as [H1 H2]. destruct (IH H2) as [vs ->].
    destruct t as [v|]; [|discriminate]. exists (v :: vs). reflexivity.
  Qed.
End FoldsP.

Section MapRevP.
  Context {A B : Type}.
  Variable f : option A -> option B.
  Lemma map_aux_app (l : list (option A)) : forall pre,
    map (fun i => match nth_error (pre ++ l) i with Some t => f t | None => None end)
        (seq (length pre) (length l))
    = map f l.
  Proof.
    induction l as [|t r IH]; intros pre; [reflexivity|].
    cbn [length seq map]. rewrite nth_error_app_pre. f_equal.
    rewrite app_cons_assoc, <- (length_snoc pre t). apply IH.
  Qed.
  Lemma map_general (l : list (option A)) : map_impl f l = map_spec f l.
  Proof.
    unfold map_spec, make_array. pose proof (map_aux_app l []) as M. cbn [app length] in M.
    rewrite M. reflexivity.
  Qed.
  Lemma reverse_impl_spec (l : list A) : reverse_impl l = reverse_spec l.
  Proof.
    unfold reverse_impl, reverse_spec, make_array. apply map_ext_in. intros i I.
    apply in_seq in I. unfold reverse_get. destruct (length l <=? i) eqn:E; [|reflexivity].
    apply Nat.leb_le in E. lia.
  Qed.
  Lemma reverse_spec_rev (l : list A) : reverse_spec l = map (@Some A) (rev l).
  Proof.
    unfold reverse_spec, make_array.
    induction l as [|x r IH] using rev_ind; [reflexivity|].
    rewrite length_snoc, rev_app_distr. cbn [rev app seq map].
    rewrite Nat.sub_0_r. replace (S (length r) - 1) with (length r) by lia.
    rewrite nth_error_app_pre. f_equal.
    rewrite <- seq_shift, map_map, <- IH. apply map_ext_in. intros i I. apply in_seq in I.
    replace (S (length r) - S i - 1) with (length r - i - 1) by lia.
    rewrite nth_error_app1 by lia. reflexivity.
  Qed.
End MapRevP.

Section MapFilterFlatP.
  Context {A B : Type}.
  Variable fi : nat -> option A -> option B.
  Variable f : option A -> option B.
  Variable p : option A -> option bool.
  Variable ff : option A -> option (option (list (option B))).

  Lemma mapi_aux_app (l : list (option A)) : forall pre,
    map (fun i => match nth_error (pre ++ l) i with Some t => fi i t | None => None end)
        (seq (length pre) (length l))
    = mapi_impl fi (length pre) l.
  Proof.
    induction l as [|t r IH]; intros pre; [reflexivity|].
    cbn [length seq map mapi_impl]. rewrite nth_error_app_pre. f_equal.
    rewrite app_cons_assoc, <- (length_snoc pre t). apply IH.
  Qed.
  Lemma mapi_impl_spec l : mapi_impl fi 0 l = mapi_spec fi l.
  Proof. symmetry. apply (mapi_aux_app l []). Qed.

  Lemma filter_eager_ok l :
    match filter_eager p l with
    | EOk out => filter_strict p l = Some out
    | EErr => filter_strict p l = None
    | EBreak => True
    end.
  Proof.
    induction l as [|t r IH]; [reflexivity|]. cbn [filter_eager filter_strict].
    destruct t as [v|]; [|exact I]. destruct (p (Some v)) as [b|]; [|reflexivity]. cbn [bind].
    destruct (filter_eager p r); [exact I|rewrite IH; reflexivity|rewrite IH; reflexivity].
  Qed.
  Lemma filter_impl_old_spec l : filter_impl_old p l = filter_spec p l.
  Proof.
    unfold filter_impl_old, filter_spec. pose proof (filter_eager_ok l) as H.
    destruct (filter_eager p l); [reflexivity|symmetry; exact H|symmetry; exact H].
  Qed.
  Lemma filter_impl_spec l : filter_impl p l = filter_spec p l.
  Proof.
    unfold filter_spec. induction l as [|t r IH]; [reflexivity|]. cbn [filter_impl filter_strict].
    rewrite IH. destruct (p t), (filter_strict p r); reflexivity.
  Qed.
  Lemma filter_map_impl_spec l : filter_map_impl f p l = filter_map_spec f p l.
  Proof.
    unfold filter_map_impl, filter_map_spec. rewrite filter_impl_spec.
    destruct (filter_spec p l); [|reflexivity]. cbn [bind]. rewrite map_general. reflexivity.
  Qed.

  Lemma flatten_strict_map l : forall a,
    returns_null ff l = false ->
    flatten_strict (map ff l) a = (r <- flatmap_impl ff l ;; Some (a ++ r)).
  Proof.
    unfold returns_null. induction l as [|t r IH]; intros a H.
    - cbn. rewrite app_nil_r. reflexivity.
    - cbn [existsb] in H. apply orb_false_iff in H. destruct H as [H1 H2].
      cbn [map flatten_strict flatmap_impl]. destruct (ff t) as [[b|]|]; [|discriminate|reflexivity].
      cbn [bind]. rewrite (IH (a ++ b) H2). destruct (flatmap_impl ff r); [|reflexivity]. cbn [bind].
      rewrite app_assoc. reflexivity.
  Qed.
  Lemma flatmap_restricted l : returns_null ff l = false -> flatmap_impl ff l = flatmap_spec ff l.
  Proof.
    intros H. unfold flatmap_spec, make_array.
    pose proof (map_aux_app ff l []) as M. cbn [app length] in M. rewrite M.
    rewrite (flatten_strict_map l [] H). destruct (flatmap_impl ff l); reflexivity.
  Qed.
End MapFilterFlatP.

Section Top1P.
  Context {A K : Type}.
  Variable keyl : option A -> option K.
  Variable cmp : K -> K -> option comparison.
  Hypothesis cmp_antisym : forall a b, cmp b a = option_map CompOpp (cmp a b).
  Hypothesis cmp_refl : forall k c, cmp k k = Some c -> c = Eq.

  Lemma cmp_is_opp c o : cmp_is (CompOpp c) (CompOpp o) = cmp_is c o.
  Proof. destruct c, o; reflexivity. Qed.

  Lemma top1_loop_fold ord vs : forall mn mk,
    keyl (Some mn) = Some mk ->
    top1_loop keyl cmp ord (map (@Some A) vs) mn mk
    = top1_fold keyl cmp (CompOpp ord) (map (@Some A) vs) (Some mn).
  Proof.
    induction vs as [|cur r IH]; intros mn mk Hk; [reflexivity|].
    cbn [map top1_loop top1_fold]. unfold pick. rewrite Hk. cbn [bind].
    destruct (keyl (Some cur)) as [ck|] eqn:Ec; [|reflexivity]. cbn [bind].
    rewrite (cmp_antisym ck mk). destruct (cmp ck mk) as [c|]; [|reflexivity]. cbn [option_map bind].
    rewrite cmp_is_opp. destruct (cmp_is c ord); cbn [bind]; apply IH; assumption.
  Qed.
  Lemma top1_restricted ord l oe :
    ord <> Eq -> has_failing l = false -> first_key_incomparable keyl cmp l = false ->
    top1_impl keyl cmp ord l oe = top1_spec keyl cmp (CompOpp ord) l oe.
  Proof.
    intros NE HF FK. destruct (has_failing_somes l HF) as [vs ->]. destruct vs as [|v vs]; [reflexivity|].
    cbn [map top1_impl top1_spec top1_fold bind]. unfold pick. cbn [first_key_incomparable map] in FK.
    destruct (keyl (Some v)) as [k|] eqn:Ek; [|reflexivity]. cbn [bind].
    destruct (cmp k k) as [c|] eqn:Ec; [|discriminate]. cbn [bind].
    rewrite (cmp_refl k c Ec). replace (cmp_is Eq (CompOpp ord)) with false by (destruct ord; [congruence|reflexivity|reflexivity]).
    cbn [bind]. apply top1_loop_fold. exact Ek.
  Qed.
End Top1P.

Lemma lexo_antisym l : Forall (fun a => forall b, cmp_val b a = option_map CompOpp (cmp_val a b)) l ->
  forall m, lexo m l = option_map CompOpp (lexo l m).
Proof.
  induction 1 as [|x l Hx Hl IH]; intros [|y m]; try reflexivity.
  cbn [lexo]. rewrite (Hx y). destruct (cmp_val x y) as [c|]; [|reflexivity]. cbn [option_map].
  destruct c; cbn [CompOpp]; try reflexivity. apply IH.
Qed.
Lemma cmp_val_antisym : forall a b, cmp_val b a = option_map CompOpp (cmp_val a b).
Proof.
  apply (val_ind' (fun a => forall b, cmp_val b a = option_map CompOpp (cmp_val a b))).
  - intros []; reflexivity.
  - intros x []; reflexivity.
  - intros x []; try reflexivity; cbn [cmp_val option_map]; f_equal; apply Z.compare_antisym.
  - intros []; try reflexivity; cbn [cmp_val option_map]; f_equal; apply Z.compare_antisym.
  - intros s []; try reflexivity. cbn [cmp_val option_map]. f_equal. apply cmp_str_antisym.
  - intros l H []; try reflexivity. rewrite !cmp_val_arr. apply lexo_antisym. exact H.
  - intros []; reflexivity.
Qed.
Lemma cmp_val_refl_eq k c : cmp_val k k = Some c -> c = Eq.
Proof.
  intros H. apply ctot_extends in H. subst c. apply (law_refl ctot cmp_laws_ctot).
Qed.

Lemma lflat_never_null g l : returns_null (lflat g) l = false.
Proof.
  unfold returns_null. induction l as [|t r IH]; [reflexivity|]. cbn [existsb]. rewrite IH.
  destruct g, t as [v|]; reflexivity.
Qed.
