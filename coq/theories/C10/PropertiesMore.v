(** C10, part "More" (array builtins over lazy elements): the property theorems; the per-builtin lemmas are in
    ProofsMore.v.  A callback is a function of the THUNKS it receives. *)
From Coq Require Import List ZArith.
From JrV Require Import C10.Model C10.Proofs C10.ModelMore C10.ProofsMore.
Import ListNotations.

(** std.any / std.all: the loops of arrays.rs stop at the first deciding element as the index recursion of
    std.jsonnet does: same value, same error, same elements evaluated. *)
Theorem C10_any_all_refine :
  forall (E : Type) (as_bool : E -> option bool) (l : list (option E)),
    any_impl as_bool l = any_spec as_bool l /\ all_impl as_bool l = all_spec as_bool l.
Proof. split; [apply any_impl_spec|apply all_impl_spec]. Qed.
Print Assumptions C10_any_all_refine.

(** std.count = length(filter(== x)), std.find = filter over the index range, std.contains = any([e == x for e
    in arr]). *)
Theorem C10_count_find_contains_refine :
  forall (A : Type) (eqa : A -> A -> option bool) (l : list (option A)) (x : A),
    count_impl eqa l x 0 = count_spec eqa l x /\
    find_impl eqa l x 0 = find_spec eqa l x /\
    contains_impl eqa l x = contains_spec eqa l x.
Proof. repeat split; [apply count_impl_spec|apply find_impl_spec|apply contains_impl_spec]. Qed.
Print Assumptions C10_count_find_contains_refine.

(** std.member (= count > 0) and std.remove (= find, then removeAt of the first index): the early-return loops
    agree with the definitions outside the known class [err_after_match]; without the hypothesis: refuted below. *)
Theorem C10_member_remove_refine :
  forall (A : Type) (eqa : A -> A -> option bool) (l : list (option A)) (x : A),
    err_after_match eqa l x = false ->
    member_impl eqa l x = member_spec eqa l x /\ remove_impl_l eqa l x = remove_spec_l eqa l x.
Proof. intros A eqa l x H. split; [apply member_restricted|apply remove_restricted]; exact H. Qed.
Print Assumptions C10_member_remove_refine.

Theorem C10_member_when_definition_defined :
  forall (A : Type) (eqa : A -> A -> option bool) (l : list (option A)) (x : A) (b : bool),
    member_spec eqa l x = Some b -> member_impl eqa l x = Some b.
Proof.
  intros A eqa l x. unfold member_spec, count_spec. induction l as [|t r IH]; intros b H; [exact H|].
  cbn [member_impl filter_strict] in *.
  destruct (eqt eqa x t) as [e|]; [|discriminate]. cbn [bind] in *.
  destruct (filter_strict (eqt eqa x) r) as [ys|] eqn:E; [|discriminate]. cbn [bind] in *.
  destruct e; [exact H|]. apply IH. exact H.
Qed.
Print Assumptions C10_member_when_definition_defined.

(** std.member([1, error], 1) is true and std.remove([1, error], 1) is [error]; both are errors by the definition. *)
Theorem C10_member_remove_refuted :
  exists (l : list (option val)) (x : val),
    err_after_match eqv l x = true /\
    member_impl eqv l x = Some true /\ member_spec eqv l x = None /\
    remove_impl_l eqv l x = Some [None] /\ remove_spec_l eqv l x = None.
Proof. exists [Some (VNum 1); None], (VNum 1). repeat split. Qed.
Print Assumptions C10_member_remove_refuted.

(** std.foldl / std.foldr / std.map (since fixes 762ca42, 9dc676b the function gets the element THUNK) equal the
    index recursions of std.jsonnet for every function. *)
Theorem C10_folds_map_refine :
  forall (A B C : Type) (fl : B -> option A -> option B) (fr : option A -> B -> option B)
         (f : option A -> option C) (l : list (option A)) (acc : B),
    foldl_impl fl l acc = foldl_spec fl l acc /\
    foldr_impl fr l acc = foldr_spec fr l acc /\
    map_impl f l = map_spec f l.
Proof. repeat split; [apply foldl_general|apply foldr_general|apply map_general]. Qed.
Print Assumptions C10_folds_map_refine.

(** the loops BEFORE those fixes (element forced first) deviated on [error] with a function that ignores it. *)
Theorem C10_callback_forced_old_refuted :
  exists (l : list (option val)) (init : val),
    has_failing l = true /\
    foldl_impl_old (fun acc t => lapply2 L2Fst (Some acc) t) l init = None /\
    foldl_spec (fun acc t => lapply2 L2Fst (Some acc) t) l init = Some init /\
    foldr_impl_old (fun t acc => lapply2 L2Snd t (Some acc)) l init = None /\
    foldr_spec (fun t acc => lapply2 L2Snd t (Some acc)) l init = Some init /\
    map_impl_old (lapply FConst) l = [None] /\ map_spec (lapply FConst) l = [Some (VNum 7)].
Proof. exists [None], (VNum 0). repeat split. Qed.
Print Assumptions C10_callback_forced_old_refuted.

(** std.mapWithIndex = makeArray(length, function(i) func(i, arr[i])); std.filter (ArrValue::filter, one pass over
    the thunks; its eager pre-pass before fix a57b880 is [filter_impl_old]) keeps the thunks the predicate accepts;
    std.filterMap = map(map_func, filter(filter_func, arr)). *)
Theorem C10_mapi_filter_refine :
  forall (A B : Type) (fi : nat -> option A -> option B) (f : option A -> option B)
         (p : option A -> option bool) (l : list (option A)),
    mapi_impl fi 0 l = mapi_spec fi l /\
    filter_impl p l = filter_spec p l /\
    filter_map_impl f p l = filter_map_spec f p l.
Proof. repeat split; [apply mapi_impl_spec|apply filter_impl_spec|apply filter_map_impl_spec]. Qed.
Print Assumptions C10_mapi_filter_refine.

(** std.flatMap on arrays (since fix 9d0c0a4 over thunks) = flattenArrays(makeArray(length, function(i)
    func(arr[i]))) for every function that never returns null (null is skipped: jrsonnet's own extension). *)
Theorem C10_flatmap_refine :
  forall (A B : Type) (ff : option A -> option (option (list (option B)))) (l : list (option A)),
    returns_null ff l = false -> flatmap_impl ff l = flatmap_spec ff l.
Proof. exact @flatmap_restricted. Qed.
Print Assumptions C10_flatmap_refine.

(** std.reverse: ReverseArray's index translation is makeArray(l, function(i) arr[l - i - 1]). *)
Theorem C10_reverse_refines :
  forall (A : Type) (l : list A),
    reverse_impl l = reverse_spec l /\ reverse_spec l = map (@Some A) (rev l).
Proof. split; [apply reverse_impl_spec|apply reverse_spec_rev]. Qed.
Print Assumptions C10_reverse_refines.

(** std.minArray / std.maxArray: array_top1 (keys cached, new-vs-current comparison) = foldl(minFn, arr, arr[0])
    (keys recomputed, current-vs-new, first element compared with itself) for every antisymmetric comparison, on
    arrays without failing elements and whose first key compares with itself; the first extreme element wins. *)
Theorem C10_top1_refines :
  forall (A K : Type) (keyl : option A -> option K) (cmp : K -> K -> option comparison)
         (l : list (option A)) (on_empty : option (option A)),
    (forall a b, cmp b a = option_map CompOpp (cmp a b)) ->
    (forall k c, cmp k k = Some c -> c = Eq) ->
    has_failing l = false -> first_key_incomparable keyl cmp l = false ->
    top1_impl keyl cmp Lt l on_empty = top1_spec keyl cmp Gt l on_empty /\
    top1_impl keyl cmp Gt l on_empty = top1_spec keyl cmp Lt l on_empty.
Proof. intros A K keyl cmp l oe AS RF HF FK. split; apply top1_restricted; auto; discriminate. Qed.
Print Assumptions C10_top1_refines.

Theorem C10_top1_on_empty :
  forall (A K : Type) (keyl : option A -> option K) (cmp : K -> K -> option comparison)
         (ord want : comparison) (on_empty : option (option A)),
    top1_impl keyl cmp ord [] on_empty = top1_spec keyl cmp want [] on_empty.
Proof. reflexivity. Qed.
Print Assumptions C10_top1_on_empty.

(** known finding C10-callback-element-forced: std.minArray([1, error], keyF=function(x) 7) fails in the code
    (array_top1 forces the element before keyF runs); the definition gives 1. *)
Theorem C10_top1_key_forced_refuted :
  exists l : list (option val),
    has_failing l = true /\ first_key_incomparable (lkeyfn (Some FConst)) cmp_val l = false /\
    top1_impl (lkeyfn (Some FConst)) cmp_val Lt l None = None /\
    top1_spec (lkeyfn (Some FConst)) cmp_val Gt l None = Some (VNum 1).
Proof. exists [Some (VNum 1); None]. repeat split. Qed.
Print Assumptions C10_top1_key_forced_refuted.

(** std.minArray([null]) is null in the code; by the definition std.__compare(null, null) fails. *)
Theorem C10_top1_first_key_refuted :
  exists l : list (option val),
    has_failing l = false /\ first_key_incomparable (lkeyfn None) cmp_val l = true /\
    top1_impl (lkeyfn None) cmp_val Lt l None = Some VNull /\
    top1_spec (lkeyfn None) cmp_val Gt l None = None.
Proof. exists [Some VNull]. repeat split. Qed.
Print Assumptions C10_top1_first_key_refuted.

(** the hypotheses of C10_top1_refines hold for the evaluator's comparison. *)
Theorem C10_compare_antisym_refl :
  (forall a b, cmp_val b a = option_map CompOpp (cmp_val a b)) /\
  (forall k c, cmp_val k k = Some c -> c = Eq).
Proof. split; [exact cmp_val_antisym|exact cmp_val_refl_eq]. Qed.
Print Assumptions C10_compare_antisym_refl.

(** array == (val.rs equals), std.startsWith / std.endsWith on arrays: the zip loops over take / skip equal
    `a[0:length(b)] == b` / `a[length(a) - length(b):] == b` with the index recursion of std.equals. *)
Theorem C10_starts_ends_with_refine :
  forall (A : Type) (eqa : A -> A -> option bool) (a b : list (option A)),
    arr_equals_impl eqa a b = arr_equals_spec eqa a b /\
    starts_with_impl eqa a b = starts_with_spec eqa a b /\
    ends_with_impl eqa a b = ends_with_spec eqa a b.
Proof. repeat split; [apply arr_equals_impl_spec|apply starts_with_impl_spec|apply ends_with_impl_spec]. Qed.
Print Assumptions C10_starts_ends_with_refine.

(** END-TO-END for the correspondence check: every call of the 19 functions over the value universe, outside
    the three known classes, has the SPEC outcome. *)
Theorem C10_lazy_calls_refine :
  forall c, lknown c = 0 -> limpl c = lspec c.
Proof.
  destruct c; cbn [lknown limpl lspec]; intros H.
  - rewrite any_impl_spec. reflexivity.
  - rewrite all_impl_spec. reflexivity.
  - rewrite count_impl_spec. reflexivity.
  - rewrite member_restricted; [reflexivity|]. destruct (err_after_match eqv l x); [discriminate|reflexivity].
  - rewrite contains_impl_spec. reflexivity.
  - rewrite find_impl_spec. reflexivity.
  - rewrite remove_restricted; [reflexivity|]. destruct (err_after_match eqv l x); [discriminate|reflexivity].
  - rewrite foldl_general. reflexivity.
  - rewrite foldr_general. reflexivity.
  - rewrite map_general. reflexivity.
  - rewrite mapi_impl_spec. reflexivity.
  - rewrite filter_impl_spec. reflexivity.
  - rewrite filter_map_impl_spec. reflexivity.
  - rewrite flatmap_restricted; [reflexivity|apply lflat_never_null].
  - rewrite reverse_impl_spec. reflexivity.
  - destruct (has_failing l) eqn:E; [discriminate|].
    destruct (first_key_incomparable (lkeyfn k) cmp_val l) eqn:F; [discriminate|].
    rewrite (top1_restricted (lkeyfn k) cmp_val cmp_val_antisym cmp_val_refl_eq Lt l on_empty); auto; discriminate.
  - destruct (has_failing l) eqn:E; [discriminate|].
    destruct (first_key_incomparable (lkeyfn k) cmp_val l) eqn:F; [discriminate|].
    rewrite (top1_restricted (lkeyfn k) cmp_val cmp_val_antisym cmp_val_refl_eq Gt l on_empty); auto; discriminate.
  - rewrite starts_with_impl_spec. reflexivity.
  - rewrite ends_with_impl_spec. reflexivity.
Qed.
Print Assumptions C10_lazy_calls_refine.

(** each known class ([lknown]: 1 = member / remove stop at the first match, 2 = minArray / maxArray force the
    element before keyF, 3 = they do not compare the first key with itself) contains a deviating call. *)
Theorem C10_lazy_known_classes_refuted :
  (exists c, lknown c = 1 /\ limpl c <> lspec c) /\
  (exists c, lknown c = 2 /\ limpl c <> lspec c) /\
  (exists c, lknown c = 3 /\ limpl c <> lspec c).
Proof.
  repeat split.
  - exists (LMember [Some (VNum 1); None] (VNum 1)). split; [reflexivity|discriminate].
  - exists (LMinArray [Some (VNum 1); None] (Some FConst) None). split; [reflexivity|discriminate].
  - exists (LMinArray [Some VNull] None None). split; [reflexivity|discriminate].
Qed.
Print Assumptions C10_lazy_known_classes_refuted.

(** non-vacuity *)
Example C10_any_all_nonvacuous :
  any_impl as_bool [Some (VBool false); Some (VBool true); None] = Some true /\
  all_impl as_bool [Some (VBool true); Some (VBool false); Some (VNum 1)] = Some false /\
  any_impl as_bool [Some (VBool false); Some (VNum 1); Some (VBool true)] = None /\
  all_impl as_bool [Some (VBool true); None] = None.
Proof. repeat split; reflexivity. Qed.
Example C10_member_remove_nonvacuous :
  err_after_match eqv [None; Some (VNum 1)] (VNum 1) = false /\
  err_after_match eqv [Some (VNum 2); Some (VNum 1); Some (VNum 1)] (VNum 1) = false /\
  member_impl eqv [Some (VNum 2); Some (VNum 1); Some (VNum 1)] (VNum 1) = Some true /\
  remove_impl_l eqv [Some (VNum 2); Some (VNum 1); Some (VNum 1)] (VNum 1) = Some [Some (VNum 2); Some (VNum 1)] /\
  count_impl eqv [Some (VNum 2); Some (VNum 1); Some (VNum 1)] (VNum 1) 0 = Some 2 /\
  find_impl eqv [Some (VNum 2); Some (VNum 1); Some (VNum 1)] (VNum 1) 0 = Some [1; 2].
Proof. repeat split; reflexivity. Qed.
Example C10_folds_nonvacuous :
  has_failing [Some (VNum 1); Some (VNum 2)] = false /\
  foldl_impl (fun acc t => lapply2 L2Add (Some acc) t) [Some (VNum 1); Some (VNum 2)] (VNum 4) = Some (VNum 7) /\
  foldr_impl (fun t acc => lapply2 L2Fst t (Some acc)) [Some (VNum 1); Some (VNum 2)] (VNum 4) = Some (VNum 1) /\
  (forall a, lapply2 L2Add (Some a) None = None) /\
  foldl_impl (fun acc t => lapply2 L2Add (Some acc) t) [Some (VNum 1); None] (VNum 4) = None.
Proof. repeat split; reflexivity. Qed.
Example C10_top1_nonvacuous :
  let l := [Some (VArr [VNum 2]); Some (VArr [VNum 1; VNum 5]); Some (VArr [VNum 1; VNum 0])] in
  has_failing l = false /\ first_key_incomparable (lkeyfn (Some FFirst)) cmp_val l = false /\
  top1_impl (lkeyfn (Some FFirst)) cmp_val Lt l None = Some (VArr [VNum 1; VNum 5]) /\
  top1_impl (lkeyfn (Some FLen)) cmp_val Gt l None = Some (VArr [VNum 1; VNum 5]) /\
  top1_impl (lkeyfn None) cmp_val Lt [] (Some (Some (VNum 3))) = Some (VNum 3).
Proof. cbv zeta. repeat split; reflexivity. Qed.
Example C10_starts_ends_nonvacuous :
  starts_with_impl eqv [Some (VNum 1); None] [Some (VNum 1)] = Some true /\
  starts_with_impl eqv [Some (VNum 1); Some (VNum 2)] [Some (VNum 1); Some (VNum 2); None] = Some false /\
  ends_with_impl eqv [None; Some (VNum 2); Some (VNum 3)] [Some (VNum 2); Some (VNum 3)] = Some true /\
  ends_with_impl eqv [Some (VNum 1); Some (VNum 2)] [None; Some (VNum 2)] = None.
Proof. repeat split; reflexivity. Qed.
Example C10_lazy_calls_nonvacuous :
  lknown (LRemove [Some (VNum 1); Some (VStr [97%N]); Some (VNum 1)] (VStr [97%N])) = 0 /\
  limpl (LRemove [Some (VNum 1); Some (VStr [97%N]); Some (VNum 1)] (VStr [97%N]))
  = Some (LA [Some (VNum 1); Some (VNum 1)]) /\
  lknown (LMaxArray [Some (VNum 1); Some (VNum 3); Some (VNum 3)] (Some FNeg) None) = 0 /\
  limpl (LMaxArray [Some (VNum 1); Some (VNum 3); Some (VNum 3)] (Some FNeg) None) = Some (LV (VNum 1)).
Proof. repeat split; reflexivity. Qed.
Example C10_flatmap_filter_nonvacuous :
  returns_null (lflat LMDup) [None; Some (VNum 1)] = false /\
  flatmap_impl (lflat LMDup) [None; Some (VNum 1)] = Some [None; None; Some (VNum 1); Some (VNum 1)] /\
  flatmap_impl (lflat LMErrElem) [Some (VNum 1)] = Some [None] /\
  flatmap_impl (lflat LMIfNum) [Some (VNum 1); None] = None /\
  filter_impl (lpred FTrue) [None; Some (VNum 1)] = Some [None; Some (VNum 1)] /\
  filter_impl (lpred FIsNum) [Some (VNum 1); None] = None /\
  filter_map_impl (lapply FConst) (lpred FTrue) [None] = Some [Some (VNum 7)] /\
  mapi_impl (fun i t => lapply2 L2Fst (Some (VNum (Z.of_nat i))) t) 0 [None; None] = [Some (VNum 0); Some (VNum 1)].
Proof. repeat split; reflexivity. Qed.
