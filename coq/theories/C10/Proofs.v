(** C10 — the value order [ctot] as a lexicographic product and equality as its equivalence; two-pointer
    merges by one induction ([merge_ind], [sorted_merge_ind]); binary search; sort.rs by [sort_keyed_cases]. *)
From Coq Require Import List ZArith Bool Lia Sorted Permutation.
From JrV Require Import C10.Model.
From JrV Require C08.Model.
Import ListNotations.
Open Scope nat_scope.

Section MergeFacts.
  Context {A K : Type}.
  Variable keyf : A -> option K.
  Variable cmp : K -> K -> option comparison.
  Variable key : A -> K.
  Variable c : K -> K -> comparison.

  (** unfolding equations (the nested [fix] refolded) *)
  Lemma union_impl_eq a b : union_impl keyf cmp a b =
      match a, b with
      | [], [] => Some []
      | x :: a', [] => _ <- keyf x ;; r <- union_impl keyf cmp a' [] ;; Some (x :: r)
      | [], y :: b' => _ <- keyf y ;; r <- union_impl keyf cmp [] b' ;; Some (y :: r)
      | x :: a', y :: b' =>
          kx <- keyf x ;; ky <- keyf y ;; c <- cmp kx ky ;;
          match c with
          | Lt => r <- union_impl keyf cmp a' b ;; Some (x :: r)
          | Gt => r <- union_impl keyf cmp a b' ;; Some (y :: r)
          | Eq => r <- union_impl keyf cmp a' b' ;; Some (x :: r)
          end
      end.
  Proof. destruct a; destruct b; reflexivity. Qed.
  Lemma inter_impl_eq a b : inter_impl keyf cmp a b =
      match a, b with
      | [], [] => Some []
      | x :: _, [] => _ <- keyf x ;; Some []
      | [], y :: _ => _ <- keyf y ;; Some []
      | x :: a', y :: b' =>
          kx <- keyf x ;; ky <- keyf y ;; c <- cmp kx ky ;;
          match c with
          | Lt => inter_impl keyf cmp a' b
          | Gt => inter_impl keyf cmp a b'
          | Eq => r <- inter_impl keyf cmp a' b' ;; Some (x :: r)
          end
      end.
  Proof. destruct a; destruct b; reflexivity. Qed.
  Lemma diff_impl_eq a b : diff_impl keyf cmp a b =
      match a, b with
      | [], [] => Some []
      | [], y :: _ => _ <- keyf y ;; Some []
      | x :: a', [] => _ <- keyf x ;; r <- diff_impl keyf cmp a' [] ;; Some (x :: r)
      | x :: a', y :: b' =>
          kx <- keyf x ;; ky <- keyf y ;; c <- cmp kx ky ;;
          match c with
          | Lt => r <- diff_impl keyf cmp a' b ;; Some (x :: r)
          | Gt => diff_impl keyf cmp a b'
          | Eq => diff_impl keyf cmp a' b'
          end
      end.
  Proof. destruct a; destruct b; reflexivity. Qed.
  Lemma union_spec_eq a b : union_spec keyf cmp a b =
      match a, b with
      | [], _ => Some b
      | _, [] => Some a
      | x :: a', y :: b' =>
          kx <- keyf x ;; ky <- keyf y ;; c <- cmp kx ky ;;
          match c with
          | Lt => r <- union_spec keyf cmp a' b ;; Some (x :: r)
          | Gt => r <- union_spec keyf cmp a b' ;; Some (y :: r)
          | Eq => r <- union_spec keyf cmp a' b' ;; Some (x :: r)
          end
      end.
  Proof. destruct a; destruct b; reflexivity. Qed.
  Lemma inter_spec_eq a b : inter_spec keyf cmp a b =
      match a, b with
      | [], _ => Some []
      | _, [] => Some []
      | x :: a', y :: b' =>
          kx <- keyf x ;; ky <- keyf y ;; c <- cmp kx ky ;;
          match c with
          | Lt => inter_spec keyf cmp a' b
          | Gt => inter_spec keyf cmp a b'
          | Eq => r <- inter_spec keyf cmp a' b' ;; Some (x :: r)
          end
      end.
  Proof. destruct a; destruct b; reflexivity. Qed.
  Lemma diff_spec_eq a b : diff_spec keyf cmp a b =
      match a, b with
      | [], _ => Some []
      | _, [] => Some a
      | x :: a', y :: b' =>
          kx <- keyf x ;; ky <- keyf y ;; c <- cmp kx ky ;;
          match c with
          | Lt => r <- diff_spec keyf cmp a' b ;; Some (x :: r)
          | Gt => diff_spec keyf cmp a b'
          | Eq => diff_spec keyf cmp a' b'
          end
      end.
  Proof. destruct a; destruct b; reflexivity. Qed.
  Lemma union_pure_eq a b : union_pure key c a b =
      match a, b with
      | [], _ => b
      | _, [] => a
      | x :: a', y :: b' =>
          match c (key x) (key y) with
          | Lt => x :: union_pure key c a' b
          | Gt => y :: union_pure key c a b'
          | Eq => x :: union_pure key c a' b'
          end
      end.
  Proof. destruct a; destruct b; reflexivity. Qed.
  Lemma inter_pure_eq a b : inter_pure key c a b =
      match a, b with
      | [], _ => []
      | _, [] => []
      | x :: a', y :: b' =>
          match c (key x) (key y) with
          | Lt => inter_pure key c a' b
          | Gt => inter_pure key c a b'
          | Eq => x :: inter_pure key c a' b'
          end
      end.
  Proof. destruct a; destruct b; reflexivity. Qed.
  Lemma diff_pure_eq a b : diff_pure key c a b =
      match a, b with
      | [], _ => []
      | _, [] => a
      | x :: a', y :: b' =>
          match c (key x) (key y) with
          | Lt => x :: diff_pure key c a' b
          | Gt => diff_pure key c a b'
          | Eq => diff_pure key c a' b'
          end
      end.
  Proof. destruct a; destruct b; reflexivity. Qed.

  (** the key function is defined on the elements of [l] *)
  Definition keys_ok (l : list A) : Prop := Forall (fun x => keyf x = Some (key x)) l.
  (** keys of [a] compare with keys of [b] *)
  Definition cmp_ok (a b : list A) : Prop :=
    forall x y, In x a -> In y b -> cmp (key x) (key y) = Some (c (key x) (key y)).

  Lemma cmp_ok_tl_l x a b : cmp_ok (x :: a) b -> cmp_ok a b.
  Proof. intros H u v Hu Hv. apply H; simpl; auto. Qed.
  Lemma cmp_ok_tl_r y a b : cmp_ok a (y :: b) -> cmp_ok a b.
  Proof. intros H u v Hu Hv. apply H; simpl; auto. Qed.

  (** induction along a merge: the step has the three recursive calls a merge can make *)
  Lemma merge_keys_ind (P : list A -> list A -> Prop) :
    (forall b, keys_ok b -> P [] b) ->
    (forall a, keys_ok a -> P a []) ->
    (forall x a y b, keyf x = Some (key x) -> keyf y = Some (key y) ->
       P a b -> P a (y :: b) -> P (x :: a) b -> P (x :: a) (y :: b)) ->
    forall a b, keys_ok a -> keys_ok b -> P a b.
  Proof.
    intros Hl Hr Hstep. induction a as [|x a IHa]; intros b Ha Hb; [auto|].
    induction b as [|y b IHb]; [auto|].
    pose proof (Forall_inv_tail Ha) as Ha'. pose proof (Forall_inv_tail Hb) as Hb'.
    apply Hstep; auto; [exact (Forall_inv Ha)|exact (Forall_inv Hb)].
  Qed.
  (** ... and compare, so the three binds at the head of a step succeed *)
  Lemma merge_ind (P : list A -> list A -> Prop) :
    (forall b, P [] b) ->
    (forall a, P a []) ->
    (forall x a y b,
       (forall B (F : comparison -> option B),
          (kx <- keyf x ;; ky <- keyf y ;; o <- cmp kx ky ;; F o) = F (c (key x) (key y))) ->
       P a b -> P a (y :: b) -> P (x :: a) b -> P (x :: a) (y :: b)) ->
    forall a b, keys_ok a -> keys_ok b -> cmp_ok a b -> P a b.
  Proof.
    intros Hl Hr Hstep. apply (merge_keys_ind (fun a b => cmp_ok a b -> P a b)); [auto..|].
    intros x a y b Hx Hy IHeq IHlt IHgt Hc.
    pose proof (cmp_ok_tl_l _ _ _ Hc) as Hcl. pose proof (cmp_ok_tl_r _ _ _ Hc) as Hcr.
    apply Hstep; auto.
    - intros B F. rewrite Hx, Hy. cbn [bind]. rewrite (Hc x y) by (left; reflexivity). reflexivity.
    - apply IHeq. exact (cmp_ok_tl_r _ _ _ Hcl).
  Qed.

  (** one side exhausted: the loops copy the other side, still evaluating every key *)
  Fixpoint drain (l : list A) : option (list A) :=
    match l with
    | [] => Some []
    | x :: r => _ <- keyf x ;; t <- drain r ;; Some (x :: t)
    end.
  Lemma union_nil_r la : union_impl keyf cmp la [] = drain la.
  Proof. induction la as [|x a' IH]; rewrite union_impl_eq; [reflexivity|]. rewrite IH. reflexivity. Qed.
  Lemma union_nil_l lb : union_impl keyf cmp [] lb = drain lb.
  Proof. induction lb as [|y b' IH]; rewrite union_impl_eq; [reflexivity|]. rewrite IH. reflexivity. Qed.
  Lemma diff_nil_r la : diff_impl keyf cmp la [] = drain la.
  Proof. induction la as [|x a' IH]; rewrite diff_impl_eq; [reflexivity|]. rewrite IH. reflexivity. Qed.
  Lemma drain_keys_ok l : keys_ok l -> drain l = Some l.
  Proof.
    induction 1 as [|x l Hx Hl IH]; [reflexivity|]. cbn [drain]. rewrite Hx, IH. reflexivity.
  Qed.

  (** the loops of sets.rs take the steps of the reference merges, also where the comparison
      fails *)
  Lemma union_impl_spec a b :
    keys_ok a -> keys_ok b -> union_impl keyf cmp a b = union_spec keyf cmp a b.
  Proof.
    revert a b. apply merge_keys_ind.
    - intros b Hb. rewrite union_nil_l, (drain_keys_ok b Hb). destruct b; reflexivity.
    - intros a Ha. rewrite union_nil_r, (drain_keys_ok a Ha). destruct a; reflexivity.
    - intros x a y b _ _ IHeq IHlt IHgt.
      rewrite union_impl_eq, union_spec_eq, IHeq, IHlt, IHgt. reflexivity.
  Qed.
  Lemma inter_impl_spec a b :
    keys_ok a -> keys_ok b -> inter_impl keyf cmp a b = inter_spec keyf cmp a b.
  Proof.
    revert a b. apply merge_keys_ind.
    - intros b Hb. destruct Hb as [|y b Hy _]; [reflexivity|]. rewrite inter_impl_eq, Hy. reflexivity.
    - intros a Ha. destruct Ha as [|x a Hx _]; [reflexivity|]. rewrite inter_impl_eq, Hx. reflexivity.
    - intros x a y b _ _ IHeq IHlt IHgt.
      rewrite inter_impl_eq, inter_spec_eq, IHeq, IHlt, IHgt. reflexivity.
  Qed.
  Lemma diff_impl_spec a b :
    keys_ok a -> keys_ok b -> diff_impl keyf cmp a b = diff_spec keyf cmp a b.
  Proof.
    revert a b. apply merge_keys_ind.
    - intros b Hb. destruct Hb as [|y b Hy _]; [reflexivity|]. rewrite diff_impl_eq, Hy. reflexivity.
    - intros a Ha. rewrite diff_nil_r, (drain_keys_ok a Ha). destruct a; reflexivity.
    - intros x a y b _ _ IHeq IHlt IHgt.
      rewrite diff_impl_eq, diff_spec_eq, IHeq, IHlt, IHgt. reflexivity.
  Qed.

  Lemma union_spec_pure a b :
    keys_ok a -> keys_ok b -> cmp_ok a b ->
    union_spec keyf cmp a b = Some (union_pure key c a b).
  Proof.
    revert a b. apply merge_ind.
    - intros b. destruct b; reflexivity.
    - intros a. destruct a; reflexivity.
    - intros x a y b Hhead IHeq IHlt IHgt.
      rewrite union_spec_eq, union_pure_eq, Hhead.
      destruct (c (key x) (key y)); [rewrite IHeq|rewrite IHlt|rewrite IHgt]; reflexivity.
  Qed.
  Lemma inter_spec_pure a b :
    keys_ok a -> keys_ok b -> cmp_ok a b ->
    inter_spec keyf cmp a b = Some (inter_pure key c a b).
  Proof.
    revert a b. apply merge_ind.
    - intros b. destruct b; reflexivity.
    - intros a. destruct a; reflexivity.
    - intros x a y b Hhead IHeq IHlt IHgt.
      rewrite inter_spec_eq, inter_pure_eq, Hhead.
      destruct (c (key x) (key y)); [rewrite IHeq; reflexivity|exact IHlt|exact IHgt].
  Qed.
  Lemma diff_spec_pure a b :
    keys_ok a -> keys_ok b -> cmp_ok a b ->
    diff_spec keyf cmp a b = Some (diff_pure key c a b).
  Proof.
    revert a b. apply merge_ind.
    - intros b. destruct b; reflexivity.
    - intros a. destruct a; reflexivity.
    - intros x a y b Hhead IHeq IHlt IHgt.
      rewrite diff_spec_eq, diff_pure_eq, Hhead.
      destruct (c (key x) (key y)); [exact IHeq|rewrite IHlt; reflexivity|exact IHgt].
  Qed.

  Lemma union_impl_pure a b :
    keys_ok a -> keys_ok b -> cmp_ok a b ->
    union_impl keyf cmp a b = Some (union_pure key c a b).
  Proof. intros Ha Hb Hc. rewrite union_impl_spec by assumption. apply union_spec_pure; assumption. Qed.
  Lemma inter_impl_pure a b :
    keys_ok a -> keys_ok b -> cmp_ok a b ->
    inter_impl keyf cmp a b = Some (inter_pure key c a b).
  Proof. intros Ha Hb Hc. rewrite inter_impl_spec by assumption. apply inter_spec_pure; assumption. Qed.
  Lemma diff_impl_pure a b :
    keys_ok a -> keys_ok b -> cmp_ok a b ->
    diff_impl keyf cmp a b = Some (diff_pure key c a b).
  Proof. intros Ha Hb Hc. rewrite diff_impl_spec by assumption. apply diff_spec_pure; assumption. Qed.
End MergeFacts.

Lemma filter_const {X} (d : bool) (l : list X) : filter (fun _ => d) l = if d then l else [].
Proof. destruct d; induction l as [|h l IH]; cbn; congruence. Qed.

Section PureMergeFacts.
  Context {A K : Type}.
  Variable key : A -> K.
  Variable c : K -> K -> comparison.
  Hypothesis laws : cmp_laws c.

  Let R (x y : A) : Prop := c (key x) (key y) = Lt.
  Definition is_eq (o : comparison) : bool := match o with Eq => true | _ => false end.
  (** boolean form of [key_in] *)
  Definition key_in_b (x : A) (l : list A) : bool := existsb (fun y => is_eq (c (key x) (key y))) l.

  Lemma law_sym x y : c y x = CompOpp (c x y). Proof. apply laws. Qed.
  Lemma law_trans x y z : c x y = Lt -> c y z = Lt -> c x z = Lt. Proof. apply laws. Qed.
  Lemma law_eq_trans x y z : c x y = Eq -> c y z = Eq -> c x z = Eq. Proof. apply laws. Qed.
  Lemma law_eq_lt x y z : c x y = Eq -> c y z = Lt -> c x z = Lt. Proof. apply laws. Qed.
  Lemma law_lt_eq x y z : c x y = Lt -> c y z = Eq -> c x z = Lt. Proof. apply laws. Qed.
  Lemma law_refl x : c x x = Eq.
  Proof. pose proof (law_sym x x) as H. destruct (c x x); simpl in H; congruence. Qed.
  Lemma law_gt_lt x y : c x y = Gt -> c y x = Lt.
  Proof. intros H. rewrite law_sym, H. reflexivity. Qed.
  Lemma law_lt_gt x y : c x y = Lt -> c y x = Gt.
  Proof. intros H. rewrite law_sym, H. reflexivity. Qed.
  Lemma law_eq_sym x y : c x y = Eq -> c y x = Eq.
  Proof. intros H. rewrite law_sym, H. reflexivity. Qed.

  Lemma key_in_b_spec x l : key_in_b x l = true <-> key_in key c x l.
  Proof.
    unfold key_in_b, key_in. rewrite existsb_exists. split; intros [y [Hy He]]; exists y; split; auto.
    - destruct (c (key x) (key y)); simpl in He; congruence.
    - rewrite He. reflexivity.
  Qed.

  Lemma R_trans_all x y l : R x y -> Forall (R y) l -> Forall (R x) l.
  Proof.
    intros Hxy H. eapply Forall_impl; [|exact H]. intros z Hz. unfold R in *. eapply law_trans; eauto.
  Qed.
  Lemma R_eq_all x y l : c (key x) (key y) = Eq -> Forall (R y) l -> Forall (R x) l.
  Proof.
    intros Hxy H. eapply Forall_impl; [|exact H]. intros z Hz. unfold R in *. eapply law_eq_lt; eauto.
  Qed.

  (** induction along a merge of two sets: the smaller head is below everything else *)
  Lemma sorted_merge_ind (P : list A -> list A -> Prop) :
    (forall b, strict_sorted key c b -> P [] b) ->
    (forall a, strict_sorted key c a -> P a []) ->
    (forall x a y b, c (key x) (key y) = Eq ->
       Forall (R x) a -> Forall (R x) b -> Forall (R y) a -> Forall (R y) b ->
       P a b -> P (x :: a) (y :: b)) ->
    (forall x a y b, c (key x) (key y) = Lt ->
       Forall (R x) a -> Forall (R x) (y :: b) -> P a (y :: b) -> P (x :: a) (y :: b)) ->
    (forall x a y b, c (key x) (key y) = Gt ->
       Forall (R y) (x :: a) -> Forall (R y) b -> P (x :: a) b -> P (x :: a) (y :: b)) ->
    forall a b, strict_sorted key c a -> strict_sorted key c b -> P a b.
  Proof.
    intros Hl Hr Heq Hlt Hgt. induction a as [|x a IHa]; intros b Sa Sb; [auto|].
    induction b as [|y b IHb]; [auto|].
    destruct (StronglySorted_inv Sa) as [Sa' Fa]. destruct (StronglySorted_inv Sb) as [Sb' Fb].
    destruct (c (key x) (key y)) eqn:E.
    - apply Heq; auto.
      + eapply R_eq_all; eassumption.
      + eapply R_eq_all; [apply law_eq_sym|]; eassumption.
    - apply Hlt; auto. constructor; [exact E|]. eapply R_trans_all; eassumption.
    - apply Hgt; auto. apply law_gt_lt in E. constructor; [exact E|]. eapply R_trans_all; eassumption.
  Qed.

  Lemma key_in_b_cons x y l : key_in_b x (y :: l) = is_eq (c (key x) (key y)) || key_in_b x l.
  Proof. reflexivity. Qed.
  Lemma key_in_b_false_lt x l : Forall (R x) l -> key_in_b x l = false.
  Proof.
    induction 1 as [|y l Hy Hl IH]; [reflexivity|].
    rewrite key_in_b_cons, Hy. exact IH.
  Qed.
  (** an element below [z] does not matter to [z] *)
  Lemma key_in_b_skip y z l : R y z -> key_in_b z (y :: l) = key_in_b z l.
  Proof. intros H. rewrite key_in_b_cons, (law_lt_gt _ _ H). reflexivity. Qed.

  Lemma key_in_b_sym x l : key_in_b x l = existsb (fun e => is_eq (c (key e) (key x))) l.
  Proof.
    induction l as [|e l IH]; [reflexivity|]. rewrite key_in_b_cons, IH. cbn [existsb]. f_equal.
    rewrite (law_sym (key x) (key e)). destruct (c (key x) (key e)); reflexivity.
  Qed.

  Lemma union_pure_in a : forall b z, In z (union_pure key c a b) -> In z a \/ In z b.
  Proof.
    induction a as [|x a IHa]; intros b z.
    - rewrite union_pure_eq. auto.
    - induction b as [|y b IHb]; rewrite union_pure_eq; [auto|].
      destruct (c (key x) (key y)); (intros [<-|Hz]; [simpl; auto|]).
      + apply IHa in Hz. destruct Hz; simpl; auto.
      + apply IHa in Hz. destruct Hz; simpl; auto.
      + apply IHb in Hz. destruct Hz; simpl; auto.
  Qed.

  Lemma Forall_union P a b : Forall P a -> Forall P b -> Forall P (union_pure key c a b).
  Proof.
    rewrite !Forall_forall. intros Ha Hb z Hz.
    destruct (union_pure_in _ _ _ Hz); auto.
  Qed.

  Lemma union_pure_sorted a b :
    strict_sorted key c a -> strict_sorted key c b -> strict_sorted key c (union_pure key c a b).
  Proof.
    revert a b. apply sorted_merge_ind.
    (* the emitted head is below what is left of both lists *)
    3-5: intros x a y b E; intros; rewrite union_pure_eq, E;
         constructor; [assumption|]; apply Forall_union; assumption.
    - intros b Sb. rewrite union_pure_eq. exact Sb.
    - intros a Sa. rewrite union_pure_eq. destruct a; exact Sa.
  Qed.

  Lemma union_pure_members a b z :
    strict_sorted key c a -> strict_sorted key c b ->
    (In z (union_pure key c a b) <-> In z a \/ (In z b /\ key_in_b z a = false)).
  Proof.
    revert a b. apply sorted_merge_ind.
    - intros b _. rewrite union_pure_eq. simpl. intuition.
    - intros a _. rewrite union_pure_eq. destruct a; simpl; intuition.
    - (* x kept, y dropped *)
      intros x a y b E _ Fxb _ _ IH. rewrite Forall_forall in Fxb.
      rewrite union_pure_eq, E. cbn [In]. rewrite IH. split.
      + intros [H|[H|[H1 H2]]]; auto. right. split; [auto|].
        rewrite key_in_b_skip; auto.
      + intros [[H|H]|[[H|H] H2]]; auto.
        * subst z. rewrite key_in_b_cons, (law_eq_sym _ _ E) in H2. discriminate.
        * rewrite key_in_b_skip in H2; auto.
    - (* x emitted *)
      intros x a y b E _ Fxb IH. rewrite Forall_forall in Fxb.
      rewrite union_pure_eq, E. cbn [In]. rewrite IH. split.
      + intros [H|[H|[H1 H2]]]; auto. right. split; [auto|].
        rewrite key_in_b_skip; auto.
      + intros [[H|H]|[H1 H2]]; auto.
        rewrite key_in_b_skip in H2; auto.
    - (* y emitted *)
      intros x a y b E Fya _ IH.
      rewrite union_pure_eq, E. cbn [In]. rewrite IH. split.
      + intros [H|[H|[H1 H2]]]; auto. subst z. right. split; [auto|].
        apply key_in_b_false_lt. exact Fya.
      + intros [H|[[H|H] H2]]; auto.
  Qed.

  Lemma inter_pure_filter a b :
    strict_sorted key c a -> strict_sorted key c b ->
    inter_pure key c a b = filter (fun x => key_in_b x b) a.
  Proof.
    revert a b. apply sorted_merge_ind.
    - intros b _. destruct b; reflexivity.
    - intros a _. rewrite (filter_const false a : filter (fun x => key_in_b x []) a = []). destruct a; reflexivity.
    - intros x a y b E _ _ Fya _ IH. rewrite Forall_forall in Fya.
      rewrite inter_pure_eq, E, IH. cbn [filter]. rewrite key_in_b_cons, E. cbn [is_eq orb].
      f_equal. apply filter_ext_in. intros z Hz. rewrite key_in_b_skip; auto.
    - intros x a y b E _ Fxb IH.
      rewrite inter_pure_eq, E, IH. cbn [filter]. rewrite (key_in_b_false_lt x _ Fxb). reflexivity.
    - intros x a y b E Fya _ IH. rewrite Forall_forall in Fya.
      rewrite inter_pure_eq, E, IH. apply filter_ext_in. intros z Hz. rewrite key_in_b_skip; auto.
  Qed.

  Lemma diff_pure_filter a b :
    strict_sorted key c a -> strict_sorted key c b ->
    diff_pure key c a b = filter (fun x => negb (key_in_b x b)) a.
  Proof.
    revert a b. apply sorted_merge_ind.
    - intros b _. destruct b; reflexivity.
    - intros a _. rewrite (filter_const true a : filter (fun x => negb (key_in_b x [])) a = a). destruct a; reflexivity.
    - intros x a y b E _ _ Fya _ IH. rewrite Forall_forall in Fya.
      rewrite diff_pure_eq, E, IH. cbn [filter]. rewrite key_in_b_cons, E. cbn [is_eq orb negb].
      apply filter_ext_in. intros z Hz. rewrite key_in_b_skip; auto.
    - intros x a y b E _ Fxb IH.
      rewrite diff_pure_eq, E, IH. cbn [filter]. rewrite (key_in_b_false_lt x _ Fxb). reflexivity.
    - intros x a y b E Fya _ IH. rewrite Forall_forall in Fya.
      rewrite diff_pure_eq, E, IH. apply filter_ext_in. intros z Hz. rewrite key_in_b_skip; auto.
  Qed.

End PureMergeFacts.

Section BsearchFacts.
  Context {A K : Type}.
  Variable keyf : A -> option K.
  Variable cmp : K -> K -> option comparison.
  Variable key : A -> K.
  Variable c : K -> K -> comparison.
  Hypothesis laws : cmp_laws c.

  Lemma ss_nth l : strict_sorted key c l ->
    forall i j ei ej, i < j -> nth_error l i = Some ei -> nth_error l j = Some ej ->
                      c (key ei) (key ej) = Lt.
  Proof.
    induction 1 as [|x l Hl IH Hx]; intros i j ei ej Hij Hi Hj.
    - destruct i; discriminate.
    - destruct j as [|j]; [inversion Hij|]. cbn in Hj. destruct i as [|i].
      + cbn in Hi. injection Hi as <-. apply nth_error_In in Hj.
        exact (proj1 (Forall_forall _ _) Hx _ Hj).
      + cbn in Hi. eapply IH; [|eassumption|eassumption]. apply Nat.succ_lt_mono. exact Hij.
  Qed.

  Lemma ss_below arr kx mid e :
    strict_sorted key c arr -> nth_error arr mid = Some e -> c (key e) kx = Lt ->
    forall i e', i < mid + 1 -> nth_error arr i = Some e' -> c (key e') kx = Lt.
  Proof.
    intros Hs En E i e' Hi He'. destruct (Nat.eq_dec i mid) as [->|Hne].
    - congruence.
    - eapply (law_trans c laws); [|exact E]. apply (ss_nth _ Hs i mid); [lia|assumption..].
  Qed.
  Lemma ss_above arr kx mid e :
    strict_sorted key c arr -> nth_error arr mid = Some e -> c (key e) kx = Gt ->
    forall i e', mid <= i -> nth_error arr i = Some e' -> c (key e') kx = Gt.
  Proof.
    intros Hs En E i e' Hi He'. destruct (Nat.eq_dec i mid) as [->|Hne].
    - congruence.
    - apply (law_lt_gt c laws). eapply (law_trans c laws); [apply (law_gt_lt c laws); exact E|].
      apply (ss_nth _ Hs mid i); [lia|assumption..].
  Qed.

  Lemma midpoint_bounds low high : low < high -> low <= (low + high) / 2 < high.
  Proof.
    intros H. split; [apply Nat.div_le_lower_bound | apply Nat.div_lt_upper_bound]; lia.
  Qed.

  (** loop invariant: everything before [low] is below [kx], everything from [high] on above *)
  Lemma bsearch_correct arr kx :
    strict_sorted key c arr ->
    keys_ok keyf key arr ->
    (forall e, In e arr -> cmp (key e) kx = Some (c (key e) kx)) ->
    forall fuel low high,
      high <= length arr -> high - low < fuel ->
      (forall i e, i < low -> nth_error arr i = Some e -> c (key e) kx = Lt) ->
      (forall i e, high <= i -> nth_error arr i = Some e -> c (key e) kx = Gt) ->
      bsearch keyf cmp fuel arr kx low high
      = BOk (existsb (fun e => is_eq (c (key e) kx)) arr).
  Proof.
    intros Hs Hk Hc. induction fuel as [|f IH]; intros low high Hhi Hfuel Hlo Hgt; [inversion Hfuel|].
    cbn [bsearch]. destruct (low <? high) eqn:Elh.
    - apply Nat.ltb_lt in Elh. pose proof (midpoint_bounds _ _ Elh) as Hmid.
      set (mid := (low + high) / 2) in *. clearbody mid.
      destruct (nth_error arr mid) as [e|] eqn:En.
      2:{ apply nth_error_None in En. lia. }
      pose proof (nth_error_In _ _ En) as Hin.
      rewrite (proj1 (Forall_forall _ _) Hk _ Hin), (Hc _ Hin).
      destruct (c (key e) kx) eqn:E.
      + f_equal. symmetry. apply existsb_exists. exists e. rewrite E. auto.
      + apply IH; [exact Hhi | lia | exact (ss_below _ _ _ _ Hs En E) | exact Hgt].
      + apply IH; [lia | lia | exact Hlo | exact (ss_above _ _ _ _ Hs En E)].
    - apply Nat.ltb_ge in Elh. f_equal. symmetry. apply not_true_is_false. intros Ex.
      apply existsb_exists in Ex. destruct Ex as [e [Hin He]].
      apply In_nth_error in Hin. destruct Hin as [i Hi].
      destruct (Nat.lt_ge_cases i low) as [Hlt|Hge].
      + rewrite (Hlo _ _ Hlt Hi) in He. discriminate.
      + rewrite (Hgt i e) in He; [discriminate | lia | exact Hi].
  Qed.

  Lemma set_member_impl_correct x arr :
    strict_sorted key c arr ->
    keyf x = Some (key x) ->
    keys_ok keyf key arr ->
    (forall e, In e arr -> cmp (key e) (key x) = Some (c (key e) (key x))) ->
    set_member_impl keyf cmp x arr = BOk (existsb (fun e => is_eq (c (key e) (key x))) arr).
  Proof.
    intros Hs Hx Hk Hc. unfold set_member_impl. rewrite Hx.
    apply bsearch_correct; auto.
    - rewrite Nat.sub_0_r. apply Nat.lt_succ_diag_r.
    - intros i e Hi. exfalso. inversion Hi.
    - intros i e Hi He. apply nth_error_None in Hi. congruence.
  Qed.

  (** the reference definition (length of setInter([x], arr) > 0) on the same inputs *)
  Lemma set_member_spec_correct x arr :
    strict_sorted key c arr ->
    keyf x = Some (key x) ->
    keys_ok keyf key arr ->
    (forall e, In e arr -> cmp (key x) (key e) = Some (c (key x) (key e))) ->
    set_member_spec keyf cmp x arr = Some (existsb (fun e => is_eq (c (key e) (key x))) arr).
  Proof.
    intros Hs Hx Hk Hc. unfold set_member_spec.
    rewrite (inter_spec_pure keyf cmp key c [x] arr).
    - cbn [bind]. rewrite (inter_pure_filter key c laws [x] arr); [|repeat constructor|assumption].
      cbn [filter]. rewrite (key_in_b_sym key c laws). destruct (existsb _ arr); reflexivity.
    - constructor; [assumption|constructor].
    - assumption.
    - intros u v [<-|[]] Hv. apply Hc. assumption.
  Qed.
End BsearchFacts.

Section SortFacts.
  Context {A : Type}.
  Variable leb : A -> A -> bool.
  Hypothesis leb_total : forall x y, leb x y = true \/ leb y x = true.
  Hypothesis leb_trans : forall x y z, leb x y = true -> leb y z = true -> leb x z = true.

  Let le (x y : A) : Prop := leb x y = true.
  (** same key class *)
  Definition equivb (x y : A) : bool := leb x y && leb y x.

  Lemma leb_refl x : leb x x = true.
  Proof. destruct (leb_total x x); assumption. Qed.

  Lemma insert_perm x l : Permutation (insert leb x l) (x :: l).
  Proof.
    induction l as [|y l IH]; [reflexivity|]. cbn [insert]. destruct (leb x y); [reflexivity|].
    rewrite IH. apply perm_swap.
  Qed.
  Lemma isort_perm l : Permutation (isort leb l) l.
  Proof.
    induction l as [|x l IH]; [reflexivity|]. cbn [isort]. rewrite insert_perm. constructor. exact IH.
  Qed.

  Lemma insert_sorted x l : StronglySorted le l -> StronglySorted le (insert leb x l).
  Proof.
    induction 1 as [|y l Hl IH Hy]; [repeat constructor|].
    cbn [insert]. destruct (leb x y) eqn:E.
    - constructor; [constructor; assumption|]. constructor; [exact E|].
      eapply Forall_impl; [|exact Hy]. intros z Hz. unfold le in *. eapply leb_trans; eassumption.
    - constructor; [exact IH|]. rewrite insert_perm. constructor; [|exact Hy].
      destruct (leb_total x y); [congruence|assumption].
  Qed.
  Lemma isort_sorted l : StronglySorted le (isort leb l).
  Proof. induction l as [|x l IH]; [constructor|]. cbn [isort]. apply insert_sorted. exact IH. Qed.

  Lemma equivb_trans_l z x y : equivb z x = true -> equivb z y = true -> leb x y = true.
  Proof.
    unfold equivb. intros H1 H2. apply andb_true_iff in H1. apply andb_true_iff in H2.
    destruct H1, H2. eapply leb_trans; eassumption.
  Qed.

  Lemma insert_filter z x l :
    filter (equivb z) (insert leb x l) = (if equivb z x then [x] else []) ++ filter (equivb z) l.
  Proof.
    induction l as [|y l IH]; [cbn; destruct (equivb z x); reflexivity|].
    cbn [insert]. destruct (leb x y) eqn:E.
    - cbn [filter]. destruct (equivb z x); reflexivity.
    - cbn [filter]. rewrite IH. destruct (equivb z y) eqn:Ey; [|reflexivity].
      destruct (equivb z x) eqn:Ex; [|reflexivity].
      rewrite (equivb_trans_l z x y Ex Ey) in E. discriminate.
  Qed.
  Lemma isort_stable z l : filter (equivb z) (isort leb l) = filter (equivb z) l.
  Proof.
    induction l as [|x l IH]; [reflexivity|]. cbn [isort]. rewrite insert_filter, IH.
    cbn [filter]. destruct (equivb z x); reflexivity.
  Qed.

  (** any sorted list with the same class subsequences is this one *)
  Lemma stable_sorted_unique l1 : forall l2,
    StronglySorted le l1 -> StronglySorted le l2 ->
    (forall z, filter (equivb z) l1 = filter (equivb z) l2) -> l1 = l2.
  Proof.
    assert (eqv_refl : forall x, equivb x x = true) by (intros; unfold equivb; rewrite leb_refl; reflexivity).
    induction l1 as [|x l1 IH]; intros l2 S1 S2 Hf.
    - destruct l2 as [|y l2]; [reflexivity|]. specialize (Hf y). cbn in Hf. rewrite eqv_refl in Hf. discriminate.
    - destruct l2 as [|y l2]. { specialize (Hf x). cbn in Hf. rewrite eqv_refl in Hf. discriminate. }
      inversion S1 as [|? ? S1' F1]; subst. inversion S2 as [|? ? S2' F2]; subst.
      assert (Hin : forall u l l', filter (equivb u) l = filter (equivb u) l' -> In u l -> In u l').
      { intros u l l' H Hu. apply (incl_filter (equivb u)). rewrite <- H. apply filter_In. auto. }
      assert (Hxy : le x y).
      { destruct (Hin y (y :: l2) (x :: l1) (eq_sym (Hf y)) (or_introl eq_refl)) as [<-|H]; [apply leb_refl|].
        exact (proj1 (Forall_forall _ _) F1 _ H). }
      assert (Hyx : le y x).
      { destruct (Hin x (x :: l1) (y :: l2) (Hf x) (or_introl eq_refl)) as [<-|H]; [apply leb_refl|].
        exact (proj1 (Forall_forall _ _) F2 _ H). }
      assert (x = y).
      { pose proof (Hf x) as H. cbn [filter] in H. rewrite eqv_refl in H.
        unfold equivb at 2 in H. unfold le in *. rewrite Hxy, Hyx in H. cbn in H. congruence. }
      subst y. f_equal. apply IH; try assumption.
      intros z. specialize (Hf z). cbn [filter] in Hf. destruct (equivb z x); congruence.
  Qed.
End SortFacts.

Lemma insert_ext {A} (l1 l2 : A -> A -> bool) x l :
  (forall y, In y l -> l1 x y = l2 x y) -> insert l1 x l = insert l2 x l.
Proof.
  induction l as [|y l IH]; intros H; [reflexivity|]. cbn [insert].
  rewrite (H y) by (simpl; auto). destruct (l2 x y); [reflexivity|]. f_equal. apply IH.
  intros; apply H; simpl; auto.
Qed.
Lemma isort_ext {A} (l1 l2 : A -> A -> bool) l :
  (forall x y, In x l -> In y l -> l1 x y = l2 x y) -> isort l1 l = isort l2 l.
Proof.
  induction l as [|x l IH]; intros H; [reflexivity|]. cbn [isort].
  rewrite IH by (intros; apply H; simpl; auto).
  apply insert_ext. intros y Hy. apply H; [simpl; auto|].
  right. eapply Permutation_in; [apply isort_perm|exact Hy].
Qed.

(** only an earlier element is ever compared (as first argument) with a later one *)
Lemma insert_f_ok {A} (cmpf : A -> A -> option comparison) (leb : A -> A -> bool) x l :
  (forall y, In y l -> exists c, cmpf x y = Some c /\ leb x y = leb_cmp c) ->
  insert_f cmpf x l = Some (insert leb x l).
Proof.
  induction l as [|y l IH]; intros H; [reflexivity|]. cbn [insert_f insert].
  destruct (H y (or_introl eq_refl)) as [c [Hc Hl]]. rewrite Hc, Hl. cbn [bind].
  rewrite IH by (intros; apply H; simpl; auto).
  destruct c; reflexivity.
Qed.
Lemma isort_f_ok_ordered {A} (cmpf : A -> A -> option comparison) (leb : A -> A -> bool) l :
  ForallOrdPairs (fun x y => exists c, cmpf x y = Some c /\ leb x y = leb_cmp c) l ->
  isort_f cmpf l = Some (isort leb l).
Proof.
  induction 1 as [|x l Hx Hl IH]; [reflexivity|].
  cbn [isort_f isort]. rewrite IH. cbn [bind].
  apply insert_f_ok. intros y Hy.
  apply (proj1 (Forall_forall _ _) Hx). eapply Permutation_in; [apply isort_perm|exact Hy].
Qed.
Lemma insert_f_perm {A} (cmpf : A -> A -> option comparison) x l s :
  insert_f cmpf x l = Some s -> Permutation s (x :: l).
Proof.
  revert s. induction l as [|y l IH]; intros s H.
  - injection H as <-. reflexivity.
  - cbn [insert_f] in H. destruct (cmpf x y) as [c|]; [|discriminate]. cbn [bind] in H.
    destruct c; try (injection H as <-; reflexivity).
    destruct (insert_f cmpf x l) as [r|]; [|discriminate]. injection H as <-.
    rewrite (IH r eq_refl). apply perm_swap.
Qed.
Lemma isort_f_perm {A} (cmpf : A -> A -> option comparison) l s :
  isort_f cmpf l = Some s -> Permutation s l.
Proof.
  revert s. induction l as [|x l IH]; intros s H.
  - injection H as <-. reflexivity.
  - cbn [isort_f] in H. destruct (isort_f cmpf l) as [r|]; [|discriminate]. cbn [bind] in H.
    rewrite (insert_f_perm _ _ _ _ H). constructor. apply IH. reflexivity.
Qed.

Lemma isolated_fails {A} (cmpf : A -> A -> option comparison) l1 : forall e l2,
  (forall y, In y (l1 ++ l2) -> cmpf e y = None /\ cmpf y e = None) ->
  l1 ++ l2 <> [] -> isort_f cmpf (l1 ++ e :: l2) = None.
Proof.
  induction l1 as [|x l1 IH]; intros e l2 Hiso Hne.
  - cbn [app isort_f]. destruct (isort_f cmpf l2) as [s|] eqn:Es; [|reflexivity]. cbn [bind].
    pose proof (isort_f_perm _ _ _ Es) as Hp.
    destruct s as [|y s]. { apply Permutation_nil in Hp. cbn in Hne. congruence. }
    cbn [insert_f]. destruct (Hiso y) as [H1 _].
    { cbn [app]. eapply Permutation_in; [exact Hp|left; reflexivity]. }
    rewrite H1. reflexivity.
  - cbn [app isort_f].
    destruct l1 as [|x' l1]; [destruct l2 as [|y' l2]|].
    + cbn [app isort_f bind insert_f]. destruct (Hiso x (or_introl eq_refl)) as [_ H2]. rewrite H2. reflexivity.
    + rewrite (IH e (y' :: l2)); [reflexivity| |discriminate].
      intros y Hy. apply Hiso. right. exact Hy.
    + rewrite (IH e l2); [reflexivity| |discriminate].
      intros y Hy. apply Hiso. right. exact Hy.
Qed.

Section UniqFacts.
  Context {A K : Type}.
  Variable eqk : K -> K -> bool.
  Hypothesis eqk_refl : forall x, eqk x x = true.
  Hypothesis eqk_sym : forall x y, eqk x y = eqk y x.
  Hypothesis eqk_trans : forall x y z, eqk x y = true -> eqk y z = true -> eqk x z = true.

  Lemma eqk_congr kept last k : eqk kept last = true -> eqk last k = eqk kept k.
  Proof.
    intros H. destruct (eqk kept k) eqn:E.
    - eapply eqk_trans; [|exact E]. rewrite eqk_sym. exact H.
    - destruct (eqk last k) eqn:E'; [|reflexivity].
      rewrite (eqk_trans _ _ _ H E') in E. discriminate.
  Qed.

  Lemma uniq_go_spec (l : list (A * K)) : forall kept last,
    eqk kept last = true -> uniq_go eqk last l = uniq_spec_go eqk kept l.
  Proof.
    induction l as [|[x k] l IH]; intros kept last H; [reflexivity|].
    cbn [uniq_go uniq_spec_go]. rewrite (eqk_congr kept last k H).
    destruct (eqk kept k) eqn:E.
    - apply IH. exact E.
    - f_equal. apply IH. apply eqk_refl.
  Qed.
  Lemma uniq_impl_spec (l : list (A * K)) : uniq_impl eqk l = uniq_spec eqk l.
  Proof. destruct l as [|[x k] l]; [reflexivity|]. cbn. f_equal. apply uniq_go_spec. apply eqk_refl. Qed.
End UniqFacts.

Section MiscFacts.
  Context {A : Type}.

  Lemma flatten_inner_concat : forall fuel (vs : list (list A)),
    1 <= length vs <= fuel -> flatten_inner fuel vs = Some (concat vs).
  Proof.
    induction fuel as [|f IH]; intros vs Hlen; [lia|].
    destruct vs as [|v [|w [|u t]]]; [cbn in Hlen; lia| | |].
    - cbn. rewrite app_nil_r. reflexivity.
    - cbn. rewrite app_nil_r. reflexivity.
    - cbn [flatten_inner]. remember (v :: w :: u :: t) as vs eqn:Evs.
      assert (Hl : 3 <= length vs) by (rewrite Evs; cbn [length]; lia). clear Evs v w u t.
      assert (Hh : 1 <= length vs / 2 < length vs).
      { split; [apply Nat.div_le_lower_bound | apply Nat.div_lt_upper_bound]; lia. }
      set (h := length vs / 2) in *. clearbody h.
      rewrite (IH (firstn h vs)) by (rewrite firstn_length_le; lia).
      rewrite (IH (skipn h vs)) by (rewrite skipn_length; lia).
      cbn [bind]. rewrite <- concat_app, firstn_skipn. reflexivity.
  Qed.
  Lemma flatten_impl_concat (vs : list (list A)) : flatten_impl vs = Some (concat vs).
  Proof.
    destruct vs as [|v [|w t]]; [reflexivity| |].
    - cbn. rewrite app_nil_r. reflexivity.
    - unfold flatten_impl. apply flatten_inner_concat. cbn [length]. lia.
  Qed.

  Lemma join_go_spec (sep : list A) items : forall first,
    join_go sep first items =
    match somes items with
    | [] => []
    | ps => (if first then [] else sep) ++ intercalate sep ps
    end.
  Proof.
    induction items as [|[it|] r IH]; intros first; [reflexivity| |].
    - cbn [join_go somes]. rewrite IH. destruct (somes r) as [|p ps] eqn:E.
      + cbn. rewrite app_nil_r. reflexivity.
      + cbn [intercalate]. reflexivity.
    - cbn [join_go somes]. apply IH.
  Qed.
  Lemma join_impl_spec (sep : list A) items : join_impl sep items = join_spec sep items.
  Proof.
    unfold join_impl, join_spec. rewrite join_go_spec. destruct (somes items); reflexivity.
  Qed.

  Variable eqa : A -> A -> bool.
  Lemma find_first_spec x : forall l i,
    match find_first eqa x l i with
    | None => remove_spec eqa l x = l
    | Some j => i <= j /\ j - i < length l /\
                remove_spec eqa l x = firstn (j - i) l ++ skipn (S (j - i)) l
    end.
  Proof.
    induction l as [|y l IH]; intros i; [reflexivity|].
    cbn [find_first remove_spec]. destruct (eqa y x).
    - rewrite Nat.sub_diag. cbn. split; [lia|split; [lia|reflexivity]].
    - specialize (IH (S i)). destruct (find_first eqa x l (S i)) as [j|].
      + destruct IH as [H1 [H2 H3]]. split; [lia|]. split; [cbn; lia|].
        replace (j - i) with (S (j - S i)) by lia. cbn [firstn skipn app]. f_equal. exact H3.
      + f_equal. exact IH.
  Qed.

  Lemma remove_at_impl_spec (l : list A) at_ :
    remove_at_impl l at_ = C08.Model.remove_at_spec l at_.
  Proof.
    unfold remove_at_impl, C08.Model.remove_at_spec.
    destruct (at_ <? 0)%Z eqn:E; [reflexivity|]. cbn [orb].
    apply Z.ltb_ge in E.
    destruct (Z.of_nat (length l) <=? at_)%Z eqn:E2.
    - apply Z.leb_le in E2. rewrite firstn_all2 by lia. rewrite skipn_all2 by lia.
      rewrite app_nil_r. reflexivity.
    - replace (Z.to_nat (at_ + 1)) with (S (Z.to_nat at_)) by lia. reflexivity.
  Qed.

  Lemma remove_impl_spec (l : list A) x : remove_impl eqa l x = remove_spec eqa l x.
  Proof.
    unfold remove_impl. pose proof (find_first_spec x l 0) as H.
    destruct (find_first eqa x l 0) as [j|]; [|symmetry; exact H].
    destruct H as [_ [H2 H3]]. rewrite Nat.sub_0_r in *. rewrite H3.
    unfold remove_at_impl.
    replace ((Z.of_nat j <? 0)%Z) with false by (symmetry; apply Z.ltb_ge; lia).
    replace ((Z.of_nat (length l) <=? Z.of_nat j)%Z) with false by (symmetry; apply Z.leb_gt; lia).
    cbn [orb]. rewrite Nat2Z.id. replace (Z.to_nat (Z.of_nat j + 1)) with (S j) by lia. reflexivity.
  Qed.
End MiscFacts.

(** lexicographic comparisons and their order laws *)
Section LexOrders.

(** first [o1], then [o2] *)
Definition lexc (o1 o2 : comparison) : comparison :=
  match o1 with Eq => o2 | Lt => Lt | Gt => Gt end.

Lemma lexc_Eq_r o : lexc o Eq = o.
Proof. destruct o; reflexivity. Qed.

(** the laws of [cmp_laws] at a fixed first argument, the four transitivity laws as one *)
Definition laws_at {Y} (c : Y -> Y -> comparison) (x : Y) : Prop :=
  (forall y, c y x = CompOpp (c x y)) /\
  (forall y z, c x y <> Gt -> c y z <> Gt -> c x z = lexc (c x y) (c y z)).

Lemma laws_at_all {Y} (c : Y -> Y -> comparison) : (forall x, laws_at c x) -> cmp_laws c.
Proof.
  intros H. unfold cmp_laws. repeat split; intros x y; [apply (H x)|..].
  all: intros z H1 H2; rewrite (proj2 (H x) y z) by (rewrite ?H1, ?H2; discriminate).
  all: rewrite H1, H2; reflexivity.
Qed.

Lemma laws_at_ext {Y} (c c' : Y -> Y -> comparison) x :
  (forall a b, c a b = c' a b) -> laws_at c' x -> laws_at c x.
Proof. intros E [H1 H2]. split; intros *; rewrite !E; [apply H1|apply H2]. Qed.

Lemma laws_at_map {X Y} (f : X -> Y) (c : Y -> Y -> comparison) x :
  laws_at c (f x) -> laws_at (fun a b => c (f a) (f b)) x.
Proof. intros [H1 H2]. split; intros *; [apply H1|apply H2]. Qed.

Lemma laws_at_lexc {Y} (c1 c2 : Y -> Y -> comparison) x :
  laws_at c1 x -> laws_at c2 x -> laws_at (fun a b => lexc (c1 a b) (c2 a b)) x.
Proof.
  intros [S1 T1] [S2 T2]. split.
  - intros y. rewrite (S1 y), (S2 y). destruct (c1 x y); reflexivity.
  - intros y z. generalize (T1 y z) (T2 y z).
    destruct (c1 x y), (c1 y z); cbn [lexc]; intros H1 H2 Hxy Hyz; try congruence.
    + rewrite H1 by discriminate. apply H2; assumption.
    + rewrite H1 by discriminate. destruct (c2 x y); cbn [lexc]; congruence.
    + rewrite H1 by discriminate. reflexivity.
    + rewrite H1 by discriminate. reflexivity.
Qed.

Section Lex.
  Context {X : Type}.
  Variable cx : X -> X -> comparison.
  Fixpoint lex (l m : list X) : comparison :=
    match l, m with
    | [], [] => Eq
    | [], _ => Lt
    | _, [] => Gt
    | x :: l', y :: m' => lexc (cx x y) (lex l' m')
    end.

  Lemma lex_laws_at l : Forall (laws_at cx) l -> laws_at lex l.
  Proof.
    induction 1 as [|x l Hx Hl IH].
    - split; [intros []; reflexivity | intros [|y0 y] [|z0 z]; cbn; congruence].
    - (* on non-empty lists [lex] is [lexc] of [cx] on the heads and [lex] on the tails *)
      destruct (laws_at_lexc (fun p q : X * list X => cx (fst p) (fst q)) (fun p q => lex (snd p) (snd q))
                  (x, l) (laws_at_map fst cx (x, l) Hx) (laws_at_map snd lex (x, l) IH)) as [P1 P2].
      split.
      + intros [|y0 y]; [reflexivity | exact (P1 (y0, y))].
      + intros [|y0 y] [|z0 z]; try (cbn; congruence). exact (P2 (y0, y) (z0, z)).
  Qed.
End Lex.

Lemma laws_at_Z x : laws_at Z.compare x.
Proof.
  split; [intros y; apply Z.compare_antisym|].
  intros y z. rewrite !Z.compare_le_iff. intros H1 H2.
  destruct (Z.compare_spec x y) as [->|H|H]; cbn [lexc]; [reflexivity | apply Z.compare_lt_iff; lia | lia].
Qed.

Lemma cmp_laws_Z : cmp_laws Z.compare.
Proof. apply laws_at_all. exact laws_at_Z. Qed.

Lemma laws_at_N n : laws_at N.compare n.
Proof.
  apply (laws_at_ext _ (fun a b => Z.compare (Z.of_N a) (Z.of_N b))).
  - intros a b. symmetry. apply N2Z.inj_compare.
  - apply (laws_at_map Z.of_N), laws_at_Z.
Qed.

Lemma laws_at_nat n : laws_at Nat.compare n.
Proof.
  apply (laws_at_ext _ (fun a b => Z.compare (Z.of_nat a) (Z.of_nat b))).
  - intros a b. symmetry. apply Nat2Z.inj_compare.
  - apply (laws_at_map Z.of_nat), laws_at_Z.
Qed.

Lemma laws_at_str s : laws_at cmp_str s.
Proof.
  (* [cmp_str] is [lex N.compare], by conversion *)
  apply (lex_laws_at N.compare). apply Forall_forall. intros n _. apply laws_at_N.
Qed.

Lemma cmp_str_antisym s : forall t, cmp_str t s = CompOpp (cmp_str s t).
Proof. apply laws_at_str. Qed.

End LexOrders.

(** a total order extending [cmp_val] *)
Section ValueOrder.

Section ValInd.
  Variable P : val -> Prop.
  Hypothesis Hnull : P VNull.
  Hypothesis Hbool : forall b, P (VBool b).
  Hypothesis Hnum : forall z, P (VNum z).
  Hypothesis Hnegz : P VNegZero.
  Hypothesis Hstr : forall s, P (VStr s).
  Hypothesis Harr : forall l, Forall P l -> P (VArr l).
  Hypothesis Hobj : P VObj.
  Fixpoint val_ind' (v : val) : P v :=
    match v with
    | VNull => Hnull
    | VBool b => Hbool b
    | VNum z => Hnum z
    | VNegZero => Hnegz
    | VStr s => Hstr s
    | VArr l => Harr l ((fix go (l : list val) : Forall P l :=
                           match l with
                           | [] => Forall_nil P
                           | x :: r => Forall_cons x (val_ind' x) (go r)
                           end) l)
    | VObj => Hobj
    end.
End ValInd.

(** [ctot] orders the values by kind first; the ranks of null, booleans and the object are
    arbitrary.  [VNum] and [VNegZero] share a rank and [zkey VNegZero = 0], so that -0 and 0
    are equivalent, as for [eq_val]. *)
Definition rank (v : val) : nat :=
  match v with VNull => 0 | VBool _ => 1 | VNum _ | VNegZero => 2 | VStr _ => 3 | VArr _ => 4 | VObj => 5 end.

Definition zkey (v : val) : Z :=
  match v with VBool true => 1%Z | VNum z => z | _ => 0%Z end.

Fixpoint ctot (a b : val) : comparison :=
  match Nat.compare (rank a) (rank b) with
  | Eq =>
      match a, b with
      | VArr l, VArr m =>
          (fix lex (l m : list val) : comparison :=
             match l, m with
             | [], [] => Eq
             | [], _ => Lt
             | _, [] => Gt
             | x :: l', y :: m' => match ctot x y with Eq => lex l' m' | r => r end
             end) l m
      | VStr s, VStr t => cmp_str s t
      | _, _ => Z.compare (zkey a) (zkey b)
      end
  | r => r
  end.

Lemma ctot_arr l m : ctot (VArr l) (VArr m) = lex ctot l m.
Proof. reflexivity. Qed.

Definition arr_of (v : val) : list val := match v with VArr l => l | _ => [] end.

(** by rank, then number, then string, then elements *)
Lemma ctot_lexc a b : ctot a b =
  lexc (Nat.compare (rank a) (rank b))
    (lexc (Z.compare (zkey a) (zkey b))
       (lexc (cmp_str (str_of a) (str_of b)) (lex ctot (arr_of a) (arr_of b)))).
Proof.
  destruct a, b; try reflexivity;
    cbn [rank zkey str_of arr_of Nat.compare lexc cmp_str lex]; symmetry; apply lexc_Eq_r.
Qed.

Lemma ctot_laws_at_step x : Forall (laws_at ctot) (arr_of x) -> laws_at ctot x.
Proof.
  intros H. eapply laws_at_ext; [exact ctot_lexc|].
  apply laws_at_lexc; [apply (laws_at_map rank Nat.compare), laws_at_nat|].
  apply laws_at_lexc; [apply (laws_at_map zkey Z.compare), laws_at_Z|].
  apply laws_at_lexc; [apply (laws_at_map str_of cmp_str), laws_at_str|].
  apply (laws_at_map arr_of (lex ctot)), lex_laws_at, H.
Qed.

Lemma ctot_laws_at : forall x, laws_at ctot x.
Proof. apply val_ind'; intros; apply ctot_laws_at_step; try constructor; assumption. Qed.

Lemma cmp_laws_ctot : cmp_laws ctot.
Proof. apply laws_at_all. exact ctot_laws_at. Qed.

Lemma eq_val_ctot : forall a b, eq_val a b = is_eq (ctot a b).
Proof.
  apply (val_ind' (fun a => forall b, eq_val a b = is_eq (ctot a b))).
  - intros []; reflexivity.
  - intros x [|y| | | | |]; try reflexivity. destruct x, y; reflexivity.
  - intros z []; try reflexivity; apply Z.eqb_compare.
  - intros []; try reflexivity. apply Z.eqb_compare.
  - intros s []; reflexivity.
  - intros l H []; try reflexivity. revert l0.
    induction H as [|x l Hx Hl IH]; intros [|y m]; try reflexivity.
    change (eq_val (VArr (x :: l)) (VArr (y :: m))) with (eq_val x y && eq_val (VArr l) (VArr m)).
    change (ctot (VArr (x :: l)) (VArr (y :: m))) with (lexc (ctot x y) (ctot (VArr l) (VArr m))).
    rewrite Hx, IH. destruct (ctot x y); reflexivity.
  - intros []; reflexivity.
Qed.

Lemma eq_val_refl v : eq_val v v = true.
Proof. rewrite eq_val_ctot, (law_refl ctot cmp_laws_ctot). reflexivity. Qed.

Lemma eq_val_sym a b : eq_val a b = eq_val b a.
Proof. rewrite !eq_val_ctot, (law_sym ctot cmp_laws_ctot a b). destruct (ctot a b); reflexivity. Qed.

Lemma eq_val_trans a b c : eq_val a b = true -> eq_val b c = true -> eq_val a c = true.
Proof.
  rewrite !eq_val_ctot. intros H1 H2.
  rewrite (law_eq_trans ctot cmp_laws_ctot a b c); [reflexivity| |].
  - destruct (ctot a b); [reflexivity|discriminate..].
  - destruct (ctot b c); [reflexivity|discriminate..].
Qed.

Fixpoint lexo (l m : list val) : option comparison :=
  match l, m with
  | [], [] => Some Eq
  | [], _ => Some Lt
  | _, [] => Some Gt
  | x :: l', y :: m' => match cmp_val x y with Some Eq => lexo l' m' | r => r end
  end.

Lemma cmp_val_arr l m : cmp_val (VArr l) (VArr m) = lexo l m.
Proof. reflexivity. Qed.

Lemma ctot_extends : forall a b c, cmp_val a b = Some c -> ctot a b = c.
Proof.
  apply (val_ind' (fun a => forall b c, cmp_val a b = Some c -> ctot a b = c)).
  - intros [] c H; discriminate.
  - intros x [] c H; discriminate.
  - intros x [] c H; cbn in H; try discriminate; injection H as <-; reflexivity.
  - intros [] c H; cbn in H; try discriminate; injection H as <-; reflexivity.
  - intros s [] c H; cbn in H; try discriminate; injection H as <-; reflexivity.
  - intros l H [] c Hc; try discriminate. rewrite cmp_val_arr in Hc. rewrite ctot_arr.
    revert l0 Hc. induction H as [|x l Hx Hl IH]; intros [|y m] Hc; cbn in Hc; try (injection Hc as <-; reflexivity).
    cbn [lex]. destruct (cmp_val x y) as [c0|] eqn:E; [|discriminate]. rewrite (Hx y c0 E).
    destruct c0; try (injection Hc as <-; reflexivity). apply IH. exact Hc.
  - intros [] c H; discriminate.
Qed.

Lemma cmp_val_ctot a b : is_some (cmp_val a b) = true -> cmp_val a b = Some (ctot a b).
Proof.
  destruct (cmp_val a b) as [o|] eqn:E; [|discriminate]. intros _. rewrite (ctot_extends _ _ _ E). reflexivity.
Qed.

End ValueOrder.

Section ListFacts.

Lemma ForallOrdPairs_impl {X} (R S : X -> X -> Prop) l :
  (forall a b, R a b -> S a b) -> ForallOrdPairs R l -> ForallOrdPairs S l.
Proof.
  intros H. induction 1 as [|a l Ha Hl IH]; constructor; [|exact IH].
  eapply Forall_impl; [apply H|exact Ha].
Qed.

Lemma ForallOrdPairs_app_cross {X} (R : X -> X -> Prop) l1 l2 a b :
  ForallOrdPairs R (l1 ++ l2) -> In a l1 -> In b l2 -> R a b.
Proof.
  induction l1 as [|x l1 IH]; intros H Ha Hb; [destruct Ha|].
  inversion H as [|? ? Hx Hl]; subst. destruct Ha as [<-|Ha]; [|auto].
  apply (proj1 (Forall_forall _ _) Hx). apply in_or_app. right. exact Hb.
Qed.

Lemma ForallOrdPairs_combine {X Y} (R : Y -> Y -> Prop) ks :
  ForallOrdPairs R ks -> forall l : list X,
  ForallOrdPairs (fun p q : X * Y => R (snd p) (snd q)) (combine l ks).
Proof.
  induction 1 as [|k ks Hk Hks IH]; intros l; [destruct l; constructor|].
  destruct l as [|x l]; [constructor|]. cbn [combine]. constructor; [|apply IH].
  apply Forall_forall. intros [y ky] Hq. apply in_combine_r in Hq.
  exact (proj1 (Forall_forall _ _) Hk ky Hq).
Qed.

Lemma others_spec {X} (l : list X) : forall pre e rest,
  In (e, rest) (others pre l) -> exists l1 l2, l = l1 ++ e :: l2 /\ rest = rev pre ++ l1 ++ l2.
Proof.
  induction l as [|x l IH]; intros pre e rest H; [destruct H|].
  cbn [others] in H. destruct H as [H|H].
  - injection H as <- <-. exists [], l. auto.
  - destruct (IH _ _ _ H) as [l1 [l2 [-> ->]]]. exists (x :: l1), l2. split; [reflexivity|].
    cbn [rev]. rewrite <- app_assoc. reflexivity.
Qed.

Lemma map_snd_combine_eq (l ks : list val) : length ks = length l -> map snd (combine l ks) = ks.
Proof.
  revert ks. induction l as [|x l IH]; intros [|k ks] H; try discriminate; [reflexivity|].
  cbn. f_equal. apply IH. injection H as H. exact H.
Qed.

End ListFacts.

(** the calls that differ at most in uniq, remove, flattenArrays or join *)
Section SimpleCalls.

Definition simple_call (c : call) : bool :=
  match c with
  | CSort _ _ | CSet _ _ | CSetMember _ _ _ | CSetUnion _ _ _ | CSetInter _ _ _ | CSetDiff _ _ _ => false
  | _ => true
  end.

Lemma uniq_v_same k l : uniq_impl_v k l = uniq_spec_v k l.
Proof.
  unfold uniq_impl_v, uniq_spec_v, uniq_with. destruct (length l <=? 1); [reflexivity|].
  destruct (mapM (keyfn k) l); [|reflexivity]. cbn [bind]. f_equal.
  apply uniq_impl_spec; [apply eq_val_refl|apply eq_val_sym|apply eq_val_trans].
Qed.

(** set = uniq . sort in both models *)
Lemma set_refines_of_sort k l : sort_impl k l = sort_spec k l -> set_impl k l = set_spec k l.
Proof.
  intros E. unfold set_impl, set_spec. rewrite E.
  destruct (sort_spec k l); [|reflexivity]. cbn [bind]. apply uniq_v_same.
Qed.

Lemma join_with_same sep l : join_with (@join_impl) sep l = join_with (@join_spec) sep l.
Proof.
  unfold join_with. destruct sep; try reflexivity.
  - destruct (join_items_str l); [|reflexivity]. cbn [bind]. rewrite join_impl_spec. reflexivity.
  - destruct (join_items_arr l); [|reflexivity]. cbn [bind]. rewrite join_impl_spec. reflexivity.
Qed.

Lemma simple_calls_refine c :
  simple_call c = true -> impl_call c = spec_call c.
Proof.
  unfold impl_call, spec_call. destruct c; intros Hs; try discriminate Hs; try reflexivity;
    cbn [run impl_algos spec_algos a_sort a_uniq a_set a_member a_union a_inter a_diff a_flatten a_join
         a_remove a_remove_at a_sum].
  - (* uniq *) destruct (as_arr arr); [|reflexivity]. cbn [bind]. rewrite uniq_v_same. reflexivity.
  - (* remove *) destruct (as_arr arr); [|reflexivity]. cbn [bind]. rewrite remove_impl_spec. reflexivity.
  - (* removeAt *) destruct (as_arr arr); [|reflexivity]. cbn [bind]. rewrite remove_at_impl_spec. reflexivity.
  - (* flattenArrays *) destruct (as_arr arrs); [|reflexivity]. cbn [bind].
    destruct (mapM as_arr l); [|reflexivity]. cbn [bind]. rewrite flatten_impl_concat. reflexivity.
  - (* join *) destruct (as_arr arr); [|reflexivity]. cbn [bind]. rewrite join_with_same. reflexivity.
  - (* lines *) destruct (as_arr arr); [|reflexivity]. cbn [bind]. rewrite join_with_same. reflexivity.
Qed.

End SimpleCalls.

(** the set functions on the value universe *)
Section SetCalls.

(** the key of [x], [VNull] where the key function fails *)
Definition keyd (k : option fn) (x : val) : val := match keyfn k x with Some v => v | None => VNull end.

(** [cmp_val] on number keys *)
Definition cz (a b : val) : comparison := Z.compare (numz0 a) (numz0 b).

(** every element of [l] has a key, and it is a number *)
Definition num_keys (k : option fn) (l : list val) : Prop :=
  Forall (fun x => exists v, keyfn k x = Some v /\ is_num v = true) l.

Lemma cmp_laws_cz : cmp_laws cz.
Proof. apply laws_at_all. intros x. apply (laws_at_map numz0 Z.compare), laws_at_Z. Qed.

Lemma num_keys_ok k l : num_keys k l -> keys_ok (keyfn k) (keyd k) l.
Proof.
  intros H. eapply Forall_impl; [|exact H]. intros x [v [Hv _]]. unfold keyd. rewrite Hv. reflexivity.
Qed.

Lemma num_keys_cmp k a b : num_keys k a -> num_keys k b -> cmp_ok cmp_val (keyd k) cz a b.
Proof.
  intros Ha Hb x y Hx Hy.
  destruct (proj1 (Forall_forall _ _) Ha x Hx) as [v [Hv Nv]].
  destruct (proj1 (Forall_forall _ _) Hb y Hy) as [w [Hw Nw]].
  unfold keyd. rewrite Hv, Hw. unfold cz.
  destruct v; try discriminate; destruct w; try discriminate; reflexivity.
Qed.

Lemma mapM_keyd k l ks : mapM (keyfn k) l = Some ks ->
  ks = map (keyd k) l /\ keys_ok (keyfn k) (keyd k) l.
Proof.
  revert ks. induction l as [|x l IH]; intros ks H.
  - injection H as <-. split; constructor.
  - cbn [mapM] in H. destruct (keyfn k x) as [v|] eqn:Ev; [|discriminate]. cbn [bind] in H.
    destruct (mapM (keyfn k) l) as [vs|]; [|discriminate]. cbn [bind] in H. injection H as <-.
    destruct (IH vs eq_refl) as [-> Hk]. split.
    + cbn [map]. f_equal. unfold keyd. rewrite Ev. reflexivity.
    + constructor; [|exact Hk]. unfold keyd. rewrite Ev. reflexivity.
Qed.

Lemma all_comparable_pairs ks :
  all_comparable ks = true <->
  ForallOrdPairs (fun a b => is_some (cmp_val a b) = true /\ is_some (cmp_val b a) = true) ks.
Proof.
  induction ks as [|k ks IH]; [split; [constructor|reflexivity]|].
  cbn [all_comparable]. rewrite andb_true_iff, IH, forallb_forall. split.
  - intros [H1 H2]. constructor; [|exact H2]. apply Forall_forall. intros b Hb.
    apply andb_true_iff, H1, Hb.
  - intros H. inversion H as [|? ? Hk Hks]; subst. split; [|exact Hks]. intros b Hb.
    apply andb_true_iff. exact (proj1 (Forall_forall _ _) Hk b Hb).
Qed.

Lemma keys_total_cross k la lb :
  keys_total k (la ++ lb) = true ->
  keys_ok (keyfn k) (keyd k) la /\ keys_ok (keyfn k) (keyd k) lb /\
  cmp_ok cmp_val (keyd k) ctot la lb /\ cmp_ok cmp_val (keyd k) ctot lb la.
Proof.
  unfold keys_total. destruct (mapM (keyfn k) (la ++ lb)) as [ks|] eqn:E; [|discriminate]. intros H.
  destruct (mapM_keyd _ _ _ E) as [-> Hk]. apply Forall_app in Hk. destruct Hk as [Ka Kb].
  rewrite map_app in H. apply all_comparable_pairs in H.
  assert (Hc : forall x y, In x la -> In y lb ->
            is_some (cmp_val (keyd k x) (keyd k y)) = true /\ is_some (cmp_val (keyd k y) (keyd k x)) = true).
  { intros x y Hx Hy. exact (ForallOrdPairs_app_cross _ _ _ _ _ H (in_map _ _ _ Hx) (in_map _ _ _ Hy)). }
  split; [exact Ka|]. split; [exact Kb|]. split; intros x y Hx Hy; apply cmp_val_ctot.
  - exact (proj1 (Hc x y Hx Hy)).
  - exact (proj2 (Hc y x Hy Hx)).
Qed.

Lemma setops_calls_refine k a b :
  sets_ok k a b = true ->
  impl_call (CSetUnion a b k) = spec_call (CSetUnion a b k) /\
  impl_call (CSetInter a b k) = spec_call (CSetInter a b k) /\
  impl_call (CSetDiff a b k) = spec_call (CSetDiff a b k).
Proof.
  intros H. unfold impl_call, spec_call.
  cbn [run impl_algos spec_algos a_union a_inter a_diff].
  destruct a as [| | | | |la|]; try (repeat split; reflexivity).
  destruct b as [| | | | |lb|]; try (repeat split; reflexivity).
  cbn [as_arr bind]. cbn [sets_ok] in H.
  apply andb_true_iff in H. destruct H as [_ H].
  destruct (keys_total_cross k la lb H) as [Ka [Kb _]].
  repeat split.
  - rewrite (union_impl_spec _ _ (keyd k) la lb Ka Kb). reflexivity.
  - rewrite (inter_impl_spec _ _ (keyd k) la lb Ka Kb). reflexivity.
  - rewrite (diff_impl_spec _ _ (keyd k) la lb Ka Kb). reflexivity.
Qed.

Lemma strict_sorted_b_ctot k l :
  strict_sorted_b (map (keyd k) l) = true -> strict_sorted (keyd k) ctot l.
Proof.
  induction l as [|x l IH]; intros H; [constructor|].
  cbn [map strict_sorted_b] in H. apply andb_true_iff in H. destruct H as [H1 H2].
  constructor; [apply IH; exact H2|].
  apply Forall_forall. intros y Hy. rewrite forallb_forall in H1.
  specialize (H1 (keyd k y) (in_map _ _ _ Hy)).
  destruct (cmp_val (keyd k x) (keyd k y)) as [c|] eqn:E; [|discriminate].
  destruct c; try discriminate. apply ctot_extends. exact E.
Qed.

Lemma setmember_call_refines k x l :
  is_set k l && keys_total k (x :: l) = true ->
  impl_call (CSetMember x (VArr l) k) = spec_call (CSetMember x (VArr l) k).
Proof.
  intros H. apply andb_true_iff in H. destruct H as [Hs Ht].
  unfold impl_call, spec_call. cbn [run as_arr bind impl_algos spec_algos a_member].
  destruct (keys_total_cross k [x] l Ht) as [Hx [Hl [Hxl Hlx]]]. apply Forall_inv in Hx.
  assert (Hsorted : strict_sorted (keyd k) ctot l).
  { unfold is_set in Hs. destruct (mapM (keyfn k) l) as [ksl|] eqn:El; [|discriminate].
    destruct (mapM_keyd _ _ _ El) as [-> _]. apply strict_sorted_b_ctot. exact Hs. }
  rewrite (set_member_impl_correct (keyfn k) cmp_val (keyd k) ctot cmp_laws_ctot x l Hsorted Hx Hl
             (fun e He => Hlx e x He (or_introl eq_refl))).
  rewrite (set_member_spec_correct (keyfn k) cmp_val (keyd k) ctot cmp_laws_ctot x l Hsorted Hx Hl
             (fun e He => Hxl x e (or_introl eq_refl) He)).
  reflexivity.
Qed.

End SetCalls.

(** sort.rs: classifier, fast paths, comparator path *)
Section SortRs.

Definition is_str (v : val) : bool := match v with VStr _ => true | _ => false end.

Lemma get_sort_type_some ks : forall st r,
  get_sort_type st ks = Some r ->
  match r with
  | STNumber => (st = STUnknown \/ st = STNumber) /\ Forall (fun k => is_num k = true) ks
  | STString => (st = STUnknown \/ st = STString) /\ Forall (fun k => is_str k = true) ks
  | STUnknown => st = STUnknown /\ ks = []
  | STUnspec => True
  end.
Proof.
  induction ks as [|k ks IH]; intros st r H.
  - injection H as <-. destruct st; auto.
  - destruct k, st; cbn in H; try discriminate H.
    (* a key that is neither a number nor a string ends the scan with STUnspec *)
    all: try (injection H as <-; exact I).
    (* a number or a string continues it in the state of which the induction hypothesis speaks *)
    all: apply IH in H; destruct r; try exact I; destruct H as [H F].
    all: try discriminate H.
    all: try (destruct H; discriminate).
    all: split; [auto|]; constructor; [reflexivity|exact F].
Qed.

(** the classifier's error: a number and a string among the keys *)
Lemma get_sort_type_none ks : forall st,
  get_sort_type st ks = None ->
  match st with
  | STUnknown => (exists a, In a ks /\ is_num a = true) /\ (exists b, In b ks /\ is_str b = true)
  | STNumber => exists b, In b ks /\ is_str b = true
  | STString => exists a, In a ks /\ is_num a = true
  | STUnspec => True
  end.
Proof.
  induction ks as [|k ks IH]; intros st H; [discriminate|].
  destruct st; [| | exact I |].
  - (* STNumber *) destruct k; cbn in H; try discriminate.
    + destruct (IH _ H) as [b [Hb Sb]]. exists b. simpl; auto.
    + destruct (IH _ H) as [b [Hb Sb]]. exists b. simpl; auto.
    + exists (VStr s). simpl; auto.
  - (* STString *) destruct k; cbn in H; try discriminate.
    + exists (VNum z). simpl; auto.
    + exists VNegZero. simpl; auto.
    + destruct (IH _ H) as [b [Hb Sb]]. exists b. simpl; auto.
  - (* STUnknown *) destruct k; cbn in H; try discriminate.
    + destruct (IH _ H) as [b [Hb Sb]]. split; [exists (VNum z)|exists b]; simpl; auto.
    + destruct (IH _ H) as [b [Hb Sb]]. split; [exists VNegZero|exists b]; simpl; auto.
    + destruct (IH _ H) as [b [Hb Sb]]. split; [exists b|exists (VStr s)]; simpl; auto.
Qed.

Lemma mixed_not_comparable ks a b :
  In a ks -> is_num a = true -> In b ks -> is_str b = true -> all_comparable ks = false.
Proof.
  intros Ha Na Hb Sb. apply not_true_is_false. intros E. apply all_comparable_pairs in E.
  assert (N : is_some (cmp_val a b) = false /\ is_some (cmp_val b a) = false).
  { destruct a; try discriminate; destruct b; try discriminate; split; reflexivity. }
  destruct N as [N1 N2].
  destruct (ForallOrdPairs_In E a b Ha Hb) as [Heq|[[H1 H2]|[H1 H2]]]; [|congruence..].
  subst b. destruct a; discriminate.
Qed.

(** the result of the definition on the keys [ks] *)
Definition sort_keyed_spec (l ks : list val) : option (list val) :=
  if all_comparable ks
  then Some (map fst (isort (fun p q : val * val => leb_val (snd p) (snd q)) (combine l ks)))
  else None.

Lemma sort_keyed_mixed l ks :
  get_sort_type STUnknown ks = None -> sort_keyed_impl l ks = sort_keyed_spec l ks.
Proof.
  intros Es. unfold sort_keyed_impl, sort_keyed_spec. rewrite Es.
  destruct (get_sort_type_none ks STUnknown Es) as [[a [Ha Na]] [b [Hb Sb]]].
  rewrite (mixed_not_comparable ks a b Ha Na Hb Sb). reflexivity.
Qed.

Lemma leb_val_num a b : is_num a = true -> is_num b = true ->
  leb_val a b = (numz0 a <=? numz0 b)%Z /\ is_some (cmp_val a b) = true.
Proof. destruct a; try discriminate; destruct b; try discriminate; intros _ _; split; reflexivity. Qed.

Lemma leb_val_str a b : is_str a = true -> is_str b = true ->
  leb_val a b = leb_cmp (cmp_str (str_of a) (str_of b)) /\ is_some (cmp_val a b) = true.
Proof. destruct a; try discriminate; destruct b; try discriminate; intros _ _; split; reflexivity. Qed.

Lemma fast_path_sound (P : val -> bool) (leb' : val -> val -> bool) l ks :
  (forall a b, P a = true -> P b = true -> leb_val a b = leb' a b /\ is_some (cmp_val a b) = true) ->
  Forall (fun k => P k = true) ks ->
  all_comparable ks = true /\
  isort (fun p q : val * val => leb' (snd p) (snd q)) (combine l ks)
  = isort (fun p q : val * val => leb_val (snd p) (snd q)) (combine l ks).
Proof.
  intros HP Hks. rewrite Forall_forall in Hks. split.
  - apply all_comparable_pairs, ForallPairs_ForallOrdPairs. intros a b Ha Hb.
    split; apply HP; auto.
  - apply isort_ext. intros [x kx] [y ky] Hp Hq. symmetry.
    apply HP; apply Hks; eapply in_combine_r; eassumption.
Qed.

Lemma sort_fast_paths l ks st :
  get_sort_type STUnknown ks = Some st -> st = STNumber \/ st = STString ->
  all_comparable ks = true /\
  sort_keyed_impl l ks
  = Some (map fst (isort (fun p q : val * val => leb_val (snd p) (snd q)) (combine l ks))).
Proof.
  intros Hst Hfast. pose proof (get_sort_type_some _ _ _ Hst) as Hks.
  unfold sort_keyed_impl. rewrite Hst. cbn [bind]. destruct Hfast as [->| ->]; destruct Hks as [_ Hks].
  - destruct (fast_path_sound is_num (fun a b => (numz0 a <=? numz0 b)%Z) l ks leb_val_num Hks) as [Hc Hs].
    split; [exact Hc|]. do 2 f_equal. exact Hs.
  - destruct (fast_path_sound is_str (fun a b => leb_cmp (cmp_str (str_of a) (str_of b))) l ks leb_val_str Hks)
      as [Hc Hs].
    split; [exact Hc|]. do 2 f_equal. exact Hs.
Qed.

(** sort.rs agrees with the definition as soon as its comparator path does *)
Lemma sort_keyed_cases l ks :
  (forall st, get_sort_type STUnknown ks = Some st -> st = STUnspec \/ st = STUnknown ->
     (r <- isort_f (fun p q : val * val => cmp_val (snd p) (snd q)) (combine l ks) ;; Some (map fst r))
     = sort_keyed_spec l ks) ->
  sort_keyed_impl l ks = sort_keyed_spec l ks.
Proof.
  intros Hslow. destruct (get_sort_type STUnknown ks) as [st|] eqn:Es; [|apply sort_keyed_mixed; exact Es].
  destruct st.
  - destruct (sort_fast_paths l ks STNumber Es (or_introl eq_refl)) as [Hc Hs].
    unfold sort_keyed_spec. rewrite Hc. exact Hs.
  - destruct (sort_fast_paths l ks STString Es (or_intror eq_refl)) as [Hc Hs].
    unfold sort_keyed_spec. rewrite Hc. exact Hs.
  - unfold sort_keyed_impl. rewrite Es. apply (Hslow _ eq_refl). auto.
  - unfold sort_keyed_impl. rewrite Es. apply (Hslow _ eq_refl). auto.
Qed.

Lemma has_isolated_split ks : has_isolated ks = true ->
  exists k1 e k2, ks = k1 ++ e :: k2 /\
    forall y, In y (k1 ++ k2) -> cmp_val e y = None /\ cmp_val y e = None.
Proof.
  unfold has_isolated. intros H. apply existsb_exists in H. destruct H as [[e rest] [Hin H]].
  destruct (others_spec _ _ _ _ Hin) as [k1 [k2 [-> ->]]]. exists k1, e, k2. split; [reflexivity|].
  cbn [fst snd rev app] in H. rewrite forallb_forall in H. intros y Hy. specialize (H y Hy).
  apply andb_true_iff in H. destruct H as [H1 H2].
  destruct (cmp_val e y); [discriminate|]. destruct (cmp_val y e); [discriminate|]. auto.
Qed.

Lemma sort_keyed_refines l ks :
  length ks = length l -> 2 <= length ks ->
  all_comparable ks = true \/ has_isolated ks = true ->
  sort_keyed_impl l ks = sort_keyed_spec l ks.
Proof.
  intros Hlen H2 Hdet. apply sort_keyed_cases. intros _ _ _.
  unfold sort_keyed_spec. destruct (all_comparable ks) eqn:Ec.
  - rewrite (isort_f_ok_ordered _ (fun p q : val * val => leb_val (snd p) (snd q))); [reflexivity|].
    apply (ForallOrdPairs_combine (fun a b => exists c, cmp_val a b = Some c /\ leb_val a b = leb_cmp c)).
    apply all_comparable_pairs in Ec.
    eapply ForallOrdPairs_impl; [|exact Ec]. intros a b [H _]. unfold leb_val.
    destruct (cmp_val a b) as [o|]; [|discriminate]. exists o. split; [reflexivity|]. destruct o; reflexivity.
  - destruct Hdet as [Hd|Hd]; [discriminate|].
    destruct (has_isolated_split ks Hd) as [k1 [e [k2 [Hks Hiso]]]].
    pose proof (map_snd_combine_eq l ks Hlen) as Hm. rewrite Hks in Hm at 2.
    apply map_eq_app in Hm. destruct Hm as [P1 [P2' [HL [HP1 HP2]]]].
    apply map_eq_cons in HP2. destruct HP2 as [p [P2 [-> [Hp HP2]]]].
    rewrite HL. rewrite isolated_fails; [reflexivity| |].
    + intros q Hq. rewrite Hp. apply Hiso.
      rewrite <- HP1, <- HP2, <- map_app. apply in_map. exact Hq.
    + intros E. apply app_eq_nil in E. destruct E as [-> ->]. cbn in HP1, HP2. subst k1 k2.
      rewrite Hks in H2. cbn in H2. clear -H2. lia.
Qed.

Lemma sort_refines_determinate k l :
  sort_determinate k l = true -> sort_impl k l = sort_spec k l /\ set_impl k l = set_spec k l.
Proof.
  intros H. assert (E : sort_impl k l = sort_spec k l); [|split; [exact E|apply set_refines_of_sort, E]].
  unfold sort_determinate in H. unfold sort_impl, sort_spec.
  destruct (length l <=? 1) eqn:El; [reflexivity|]. cbn [orb] in H.
  destruct (mapM (keyfn k) l) as [ks|] eqn:Ek; [|reflexivity]. cbn [bind].
  destruct (mapM_keyd _ _ _ Ek) as [-> _]. apply Nat.leb_gt in El.
  apply sort_keyed_refines; [apply map_length|rewrite map_length; lia|]. apply orb_true_iff. exact H.
Qed.

End SortRs.
