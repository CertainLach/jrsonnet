(** C13 — the property theorems; helper lemmas are in Proofs.v. *)
From Coq Require Import String.
From Coq Require Import List ZArith Bool Sorted.
From JrV Require Import C13.Model C13.Proofs.
Import ListNotations.

(** std.objectFields*: ascending code point order, exactly the visible (or all) names, uniquely *)
Theorem C13_listing_sorted_exact :
  forall h fs, wf_fields fs ->
    listing_spec h fs (fields_ex h fs) /\ forall l, listing_spec h fs l -> l = fields_ex h fs.
Proof.
  intros h fs W. destruct (fields_ex_spec h fs W) as [Hs' Hm']. split; [split; assumption|].
  intros l [Hs Hm]. apply sorted_lists_unique; auto.
  intros k. rewrite Hm, Hm'. reflexivity.
Qed.
Print Assumptions C13_listing_sorted_exact.

(** std.objectHas* and std.objectFields* agree on every name *)
Theorem C13_has_iff_listed :
  forall h fs k, wf_fields fs -> (has_ex fs k h = true <-> In k (fields_ex h fs)).
Proof. intros h fs k W. symmetry. apply fields_ex_spec, W. Qed.
Print Assumptions C13_has_iff_listed.

(** the scan of `field_visibility_idx` (objectHas, get) and the one-pass `fields_visibility`
    (objectFields, length, values) both implement "most derived explicit `::` / `:::` wins" *)
Theorem C13_has_field_is_language_rule :
  forall k decls h,
    has_field_impl k decls h = match vis_spec k decls with Some hid => h || negb hid | None => false end.
Proof.
  intros k decls h.
  transitivity (match hidden_of (field_visibility_idx k decls false) with
                | Some hid => h || negb hid
                | None => false
                end).
  - unfold has_field_impl. destruct (field_visibility_idx k decls false) as [[]|], h; reflexivity.
  - rewrite field_visibility_idx_spec. destruct (vis_spec k decls); reflexivity.
Qed.
Print Assumptions C13_has_field_is_language_rule.

Theorem C13_visibility_routes_agree :
  forall decls h,
    StronglySorted str_lt (fields_impl decls h) /\
    forall k, In k (fields_impl decls h) <-> has_field_impl k decls h = true.
Proof.
  intros decls h. destruct (fields_visibility_wf decls) as [Hnd Hsome]. unfold fields_impl. split.
  - apply isort_sorted, NoDup_map_filter, Hnd.
  - intros k. rewrite in_isort, C13_has_field_is_language_rule, <- fields_visibility_spec, in_map_iff. split.
    + intros ([k' c] & E & Hin). simpl in E; subst k'. apply filter_In in Hin as [Hin Hv].
      rewrite Forall_forall in Hsome. specialize (Hsome _ Hin).
      rewrite (fv_lookup_in _ _ _ Hnd Hin). simpl in Hv, Hsome.
      destruct c as [[]|]; [exact Hv..|congruence].
    + destruct (fv_lookup k (fields_visibility decls)) as [v|] eqn:E; [|discriminate]. intros Hv.
      exists (k, Some v). split; auto. apply filter_In. split; [apply fv_lookup_some_in, E|].
      destruct v; exact Hv.
Qed.
Print Assumptions C13_visibility_routes_agree.

(** objectValues[i] = o[objectFields[i]], not forced: read off [values_spec], which Model.v also takes
    for the implementation.  Same for objectKeysValues. *)
Theorem C13_values_align :
  forall h fs, exists l,
    values_spec h fs = VArr l /\ length l = length (fields_ex h fs) /\
    forall i k, nth_error (fields_ex h fs) i = Some k -> nth_error l i = Some (value_of k fs).
Proof.
  intros h fs. eexists. split; [reflexivity|]. split; [apply map_length|].
  intros i k. apply (map_nth_error (fun k => value_of k fs)).
Qed.
Print Assumptions C13_values_align.

Theorem C13_keys_values_align :
  forall h fs, exists l,
    keys_values_spec h fs = VArr l /\ length l = length (fields_ex h fs) /\
    forall i k, nth_error (fields_ex h fs) i = Some k -> nth_error l i = Some (kv_obj k (value_of k fs)).
Proof.
  intros h fs. eexists. split; [reflexivity|]. split; [apply map_length|].
  intros i k. apply (map_nth_error (fun k => kv_obj k (value_of k fs))).
Qed.
Print Assumptions C13_keys_values_align.

(** std.get: builtin_get is the definition; the last two conjuncts unfold the definition's [if] *)
Theorem C13_get_spec :
  forall fs k d h,
    get_impl fs k d h = get_spec fs k d h /\
    (has_ex fs k h = true -> get_spec fs k d h = force (value_of k fs)) /\
    (has_ex fs k h = false -> get_spec fs k d h = default_of d).
Proof.
  intros fs k d h. split.
  - unfold get_impl, get_spec, has_ex, value_of.
    destruct (lookup k fs) as [[[] v]|]; destruct h; reflexivity.
  - unfold get_spec. split; intros ->; reflexivity.
Qed.
Print Assumptions C13_get_spec.

(** std.mergePatch: on canonical JSON values builtin_merge_patch computes RFC 7396's MergePatch
    ([mp_def], std.jsonnet's definition, is tied to neither by a theorem, only by the differential run) *)
Theorem C13_mergepatch_rfc7396 :
  forall n t p, json t = true -> json p = true -> (depth p < n)%nat -> mp_impl n t p = Ok (rfc7396 t p).
Proof.
  induction n as [|n IH]; intros t p Jt Jp Hd; [inversion Hd|].
  pose proof (json_not_bomb _ Jt) as Bt.
  destruct p as [| | | | |pf| |]; try discriminate Jp;
    try (destruct t; try discriminate Bt; reflexivity).
  rewrite mp_impl_obj, rfc_obj by exact Bt.
  pose proof (jf_obj_fields _ Jt) as Jtf. pose proof (jf_obj_fields _ Jp) as Jpf. simpl in Jpf.
  set (tf := obj_fields t) in *.
  rewrite (mp_loop_out (mp_impl n) rfc7396 _ _ _ Jtf Jpf).
  - (* both field lists are ascending and agree on every name *)
    simpl. f_equal. f_equal. apply sorted_fields_ext.
    + apply mp_out_sorted, union_sorted_sorted; apply fields_ex_spec, jf_wf; assumption.
    + apply rfc_go_sorted, Jtf.
    + intros k. rewrite lookup_mp_out, lookup_rfc_go by apply sorted_nodup, Jpf.
      rewrite mem_union, !mem_fields_ex, !jf_has by auto using jf_wf.
      unfold mp_field, value_of.
      destruct (lookup k pf) as [[h pv]|].
      * rewrite orb_true_r. reflexivity.
      * rewrite orb_false_r. destruct (lookup k tf) as [[h v]|] eqn:Lt; [|reflexivity].
        destruct (jf_lookup _ _ _ _ Jtf Lt) as [-> _]. reflexivity.
  - intros k h pv L. destruct (jf_lookup _ _ _ _ Jpf L) as [_ Jpv].
    apply IH; [apply jf_value_json, Jtf|exact Jpv|].
    apply Nat.le_lt_trans with (depth_fields pf).
    + exact (depth_fields_in _ _ _ _ (lookup_in _ _ _ L)).
    + rewrite depth_obj in Hd. apply Nat.succ_lt_mono, Hd.
Qed.
Print Assumptions C13_mergepatch_rfc7396.

(** ... and a visible target field the patch does not mention visibly is handed over unevaluated *)
Theorem C13_mergepatch_lazy :
  forall n t pf out k,
    wf_fields (obj_fields t) -> wf_fields pf ->
    mp_impl (S n) t (VObj pf) = Ok (VObj out) ->
    has_ex (obj_fields t) k false = true -> vlookup k pf = None ->
    lookup k out = Some (false, value_of k (obj_fields t)).
Proof. intros n t pf out k _ _. apply mergepatch_lazy. Qed.
Print Assumptions C13_mergepatch_lazy.

(** `forall t p, mp_impl = mp_def`: refuted (eager recursion) *)
Theorem C13_mergepatch_eager_refuted :
  exists t p, mp_def (fuel_for p) t p = Ok (VObj [(lit "a", (false, VBomb 0)); (lit "b", (false, VNum 2))]) /\
              mp_impl (fuel_for p) t p = Err ERun.
Proof.
  exists (VObj [(lit "a", (false, VBomb 7)); (lit "b", (false, VNum 2))]), (VObj [(lit "a", (false, VNum 3))]).
  split; vm_compute; reflexivity.
Qed.
Print Assumptions C13_mergepatch_eager_refuted.

(** std.prune: the result is clean, clean values are left alone, it fails only on a failing leaf *)
Theorem C13_prune_spec :
  forall v,
    (forall v', prune v = Ok v' -> clean v' = true /\ prune v' = Ok v') /\
    (clean v = true -> prune v = Ok v) /\
    (bomb_free v = true -> exists v', prune v = Ok v').
Proof.
  intros v. split; [|split; [apply prune_fixpoint|apply prune_total]].
  intros v' H. split; [exact (prune_clean v v' H)|exact (prune_fixpoint v' (prune_clean v v' H))].
Qed.
Print Assumptions C13_prune_spec.

(** std.equals on canonical JSON values never fails and decides structural equality *)
Theorem C13_equals_equiv :
  forall a b c, json a = true -> json b = true -> json c = true ->
    (exists r, equals_spec a b = Ok r /\ (r = true <-> a = b)) /\
    equals_spec a a = Ok true /\
    equals_spec a b = equals_spec b a /\
    (equals_spec a b = Ok true -> equals_spec b c = Ok true -> equals_spec a c = Ok true).
Proof.
  intros a b c Ja Jb Jc. pose proof equals_spec_decides as D. repeat split.
  - destruct (D a Ja b Jb) as [[E1 E]|[E1 N]].
    + exists true. split; [exact E1|]. split; auto.
    + exists false. split; [exact E1|]. split; [discriminate|]. intros E. destruct (N E).
  - destruct (D a Ja a Ja) as [[E _]|[_ N]]; [exact E|destruct (N eq_refl)].
  - destruct (D a Ja b Jb) as [[_ ->]|[E1 N]]; [reflexivity|].
    destruct (D b Jb a Ja) as [[_ E]|[E2 _]]; [destruct (N (eq_sym E))|].
    rewrite E1, E2. reflexivity.
  - intros H1 H2. destruct (D a Ja b Jb) as [[_ ->]|[E _]]; [exact H2|].
    rewrite E in H1. discriminate H1.
Qed.
Print Assumptions C13_equals_equiv.

(** val.rs `equals`: the `ptr_eq` short cut does not look at the elements *)
Theorem C13_equals_shortcut_refuted :
  exists a, equals_spec a a = Err ERun /\ equals_impl true a a = Ok true.
Proof. exists (VArr [VBomb 7]). split; vm_compute; reflexivity. Qed.
Print Assumptions C13_equals_shortcut_refuted.

(** std.type / std.is*: exactly one predicate holds, std.type names it, the seven names are distinct *)
Theorem C13_type_partition :
  forall v, is_bomb v = false ->
    exists t, type_spec v = Ok (VStr (ty_name t)) /\
              (forall t', is_spec t' v = Ok (VBool (ty_eqb t' t))) /\
              (forall t', ty_eqb t' t = true <-> t' = t) /\
              (forall t', ty_name t' = ty_name t -> t' = t).
Proof.
  intros v H.
  destruct v; try discriminate H;
    [exists TNull|exists TBool|exists TNum|exists TStr|exists TArr|exists TObj|exists TFun];
    (split; [reflexivity|]; split; [reflexivity|]; split; intros t'; [apply ty_eqb_eq|apply ty_name_inj]).
Qed.
Print Assumptions C13_type_partition.

(** more eager than the definition; rebinds self *)
Theorem C13_mapwithkey_lazy_refuted :
  exists f fs, wf_fields fs /\ map_with_key_spec f fs <> map_with_key_impl f fs.
Proof.
  exists MKey, [(lit "a", (false, VBomb 7))]. split.
  - repeat constructor. intros [].
  - vm_compute. discriminate.
Qed.
Print Assumptions C13_mapwithkey_lazy_refuted.

(** [selfdeps] comes from the generator: the model does not see field bodies *)
Theorem C13_removekey_self_refuted :
  exists fs k sd, wf_fields fs /\ remove_key_spec fs k sd <> remove_key_impl fs k sd.
Proof.
  exists [(lit "a", (false, VNum 1)); (lit "b", (false, VNum 1))], (lit "a"), [lit "b"]. split.
  - repeat constructor; [intros [E|[]]; discriminate E|intros []].
  - vm_compute. discriminate.
Qed.
Print Assumptions C13_removekey_self_refuted.
