(** C13 — lemmas for Properties.v: objects through [lookup], mergePatch by [sorted_fields_ext],
    equals by [decides]. *)
From Coq Require Import String.
From Coq Require Import List ZArith NArith Bool Sorted Lia.
From JrV Require Import C13.Model.
Import ListNotations.

(** * induction on [val] *)
Section ValInd.
  Variable P : val -> Prop.
  Hypothesis Hnull : P VNull.
  Hypothesis Hbool : forall b, P (VBool b).
  Hypothesis Hnum : forall z, P (VNum z).
  Hypothesis Hstr : forall s, P (VStr s).
  Hypothesis Harr : forall l, Forall P l -> P (VArr l).
  Hypothesis Hobj : forall fs, Forall (fun f => P (snd (snd f))) fs -> P (VObj fs).
  Hypothesis Hfun : forall n, P (VFun n).
  Hypothesis Hbomb : forall i, P (VBomb i).
  Fixpoint val_ind2 (v : val) : P v :=
    match v with
    | VNull => Hnull
    | VBool b => Hbool b
    | VNum z => Hnum z
    | VStr s => Hstr s
    | VArr l => Harr l ((fix go (l : list val) : Forall P l :=
                           match l with [] => Forall_nil _ | x :: r => Forall_cons _ (val_ind2 x) (go r) end) l)
    | VObj fs => Hobj fs ((fix go (fs : fields) : Forall (fun f => P (snd (snd f))) fs :=
                             match fs with
                             | [] => Forall_nil _
                             | (k, (h, x)) :: r => Forall_cons (k, (h, x)) (val_ind2 x) (go r)
                             end) fs)
    | VFun n => Hfun n
    | VBomb i => Hbomb i
    end.
End ValInd.

Lemma bind_ok {A B} (r : res A) (f : A -> res B) b :
  bind r f = Ok b -> exists a, r = Ok a /\ f a = Ok b.
Proof. destruct r as [a| |]; try discriminate. intros H. exists a. auto. Qed.

(** * the order on names *)
Lemma str_cmp_refl a : str_cmp a a = Eq.
Proof. induction a; simpl; auto. rewrite N.compare_refl; auto. Qed.

Lemma str_cmp_eq a : forall b, str_cmp a b = Eq -> a = b.
Proof.
  induction a; destruct b; simpl; try discriminate; auto.
  destruct (N.compare_spec a n); try discriminate. intros; subst; f_equal; auto.
Qed.

Lemma str_cmp_antisym a : forall b, str_cmp b a = CompOpp (str_cmp a b).
Proof.
  induction a; destruct b; simpl; auto.
  rewrite (N.compare_antisym a n). destruct (N.compare a n); simpl; auto.
Qed.

Lemma str_lt_trans a : forall b c, str_lt a b -> str_lt b c -> str_lt a c.
Proof.
  unfold str_lt. induction a as [|x a IH]; intros [|y b] [|z c]; simpl; try discriminate; auto.
  destruct (N.compare_spec x y) as [->|L1|]; try discriminate.
  - destruct (N.compare y z); try discriminate; eauto.
  - intros _. destruct (N.compare_spec y z) as [<-|L2|]; try discriminate; intros _.
    + rewrite (proj2 (N.compare_lt_iff _ _) L1). reflexivity.
    + rewrite (proj2 (N.compare_lt_iff _ _) (N.lt_trans _ _ _ L1 L2)). reflexivity.
Qed.

Lemma str_lt_irrefl a : ~ str_lt a a.
Proof. unfold str_lt. rewrite str_cmp_refl. discriminate. Qed.
Lemma str_lt_neq a b : str_lt a b -> a <> b.
Proof. intros H E; subst. eapply str_lt_irrefl; eauto. Qed.

Lemma str_lt_Forall x y l : str_lt x y -> Forall (str_lt y) l -> Forall (str_lt x) l.
Proof. intros L. apply Forall_impl. intros z. apply str_lt_trans, L. Qed.

Lemma str_cmp_spec a b : CompareSpec (a = b) (str_lt a b) (str_lt b a) (str_cmp a b).
Proof.
  destruct (str_cmp a b) eqn:C; constructor.
  - apply str_cmp_eq, C.
  - exact C.
  - unfold str_lt. rewrite str_cmp_antisym, C. reflexivity.
Qed.

Lemma str_eqb_spec a b : reflect (a = b) (str_eqb a b).
Proof.
  unfold str_eqb. destruct (str_cmp a b) eqn:C; constructor;
    [apply str_cmp_eq, C | | ]; intros ->; rewrite str_cmp_refl in C; discriminate.
Qed.
Lemma str_eqb_refl a : str_eqb a a = true.
Proof. unfold str_eqb. rewrite str_cmp_refl. reflexivity. Qed.
Lemma str_ltb_lt a b : str_ltb a b = true <-> str_lt a b.
Proof. unfold str_ltb, str_lt. destruct (str_cmp a b); split; congruence. Qed.

(** * lists *)
Section MapFilter.
  Context {A B : Type} (f : A -> B) (p : A -> bool).

  Lemma in_map_filter l x : In x (map f (filter p l)) -> In x (map f l).
  Proof. apply incl_map, incl_filter. Qed.

  Lemma NoDup_map_filter l : NoDup (map f l) -> NoDup (map f (filter p l)).
  Proof.
    induction l as [|a l IH]; simpl; intros H; [exact H|].
    apply NoDup_cons_iff in H as [Ha H]. destruct (p a); simpl; auto.
    constructor; auto. intros Hin. apply Ha, in_map_filter, Hin.
  Qed.

  Lemma sorted_map_filter (R : B -> B -> Prop) l :
    StronglySorted R (map f l) -> StronglySorted R (map f (filter p l)).
  Proof.
    induction l as [|a l IH]; simpl; intros H; [exact H|].
    apply StronglySorted_inv in H as [H Ha]. destruct (p a); simpl; auto.
    constructor; auto. revert Ha. apply incl_Forall. intros x. apply in_map_filter.
  Qed.
End MapFilter.

(** * sorting *)
Lemma in_insert_sorted k x l : In k (insert_sorted x l) <-> In k (x :: l).
Proof.
  induction l as [|a l IH]; simpl; [reflexivity|].
  destruct (str_ltb a x); [|reflexivity].
  cbn [In]. rewrite IH. cbn [In]. split; intros [H|[H|H]]; auto.
Qed.

Lemma insert_sorted_sorted x l :
  StronglySorted str_lt l -> ~ In x l -> StronglySorted str_lt (insert_sorted x l).
Proof.
  induction 1 as [|a l Hs IH Hall]; simpl; intros Hn.
  - repeat constructor.
  - unfold str_ltb. destruct (str_cmp_spec a x) as [E|Hlt|Hgt].
    + destruct Hn. left. exact E.
    + constructor.
      * apply IH. intros Hx. apply Hn. right. exact Hx.
      * apply Forall_forall. intros y Hy. apply in_insert_sorted in Hy as [<-|Hy]; [exact Hlt|].
        rewrite Forall_forall in Hall. auto.
    + repeat constructor; auto. exact (str_lt_Forall _ _ _ Hgt Hall).
Qed.

Lemma in_isort k l : In k (isort l) <-> In k l.
Proof.
  induction l as [|a l IH]; simpl; [reflexivity|].
  rewrite in_insert_sorted. cbn [In]. rewrite IH. reflexivity.
Qed.

Lemma isort_sorted l : NoDup l -> StronglySorted str_lt (isort l).
Proof.
  induction 1; simpl; [constructor|].
  apply insert_sorted_sorted; auto. rewrite in_isort; auto.
Qed.

Lemma sorted_nodup l : StronglySorted str_lt l -> NoDup l.
Proof.
  induction 1 as [|a l _ IH Hall]; constructor; auto. intros Hin.
  rewrite Forall_forall in Hall. exact (str_lt_irrefl a (Hall a Hin)).
Qed.

Lemma sorted_lists_unique (l1 l2 : list str) :
  StronglySorted str_lt l1 -> StronglySorted str_lt l2 -> (forall k, In k l1 <-> In k l2) -> l1 = l2.
Proof.
  intros H1. revert l2. induction H1 as [|a l1 Hs IH Hall]; intros l2 H2 Hiff.
  - destruct l2; auto. exfalso. apply (proj2 (Hiff s)). left; auto.
  - destruct H2 as [|b l2 Hs2 Hall2].
    + exfalso. apply (proj1 (Hiff a)). left; auto.
    + rewrite Forall_forall in Hall, Hall2.
      assert (a = b).
      { destruct (proj1 (Hiff a) (or_introl eq_refl)) as [->|Hin]; auto.
        destruct (proj2 (Hiff b) (or_introl eq_refl)) as [->|Hin2]; auto.
        exfalso. apply (str_lt_irrefl a). eapply str_lt_trans; [apply Hall; eauto|apply Hall2; auto]. }
      subst. f_equal. apply IH; auto. intros k. split; intros Hk.
      * destruct (proj1 (Hiff k) (or_intror Hk)) as [->|]; auto.
        exfalso. apply (str_lt_irrefl k). apply Hall; auto.
      * destruct (proj2 (Hiff k) (or_intror Hk)) as [->|]; auto.
        exfalso. apply (str_lt_irrefl k). apply Hall2; auto.
Qed.

(** * lookups *)
Lemma lookup_in k fs hv : lookup k fs = Some hv -> In (k, hv) fs.
Proof.
  induction fs as [|[k' hv'] r IH]; simpl; [discriminate|].
  destruct (str_eqb_spec k k') as [->|_]; [intros [= ->]; left; reflexivity|auto].
Qed.
Lemma lookup_none k fs : lookup k fs = None <-> ~ In k (map fst fs).
Proof.
  induction fs as [|[k' hv'] r IH]; simpl; [tauto|].
  destruct (str_eqb_spec k k') as [->|Hne].
  - split; [discriminate|]. intros H. destruct H. left. reflexivity.
  - rewrite IH. split.
    + intros H [E|Hin]; [exact (Hne (eq_sym E))|exact (H Hin)].
    + intros H Hin. exact (H (or_intror Hin)).
Qed.
Lemma in_lookup k hv fs : wf_fields fs -> In (k, hv) fs -> lookup k fs = Some hv.
Proof.
  unfold wf_fields. induction fs as [|[k' hv'] r IH]; simpl; [tauto|].
  intros Hnd [[= -> ->]|Hin].
  - rewrite str_eqb_refl. reflexivity.
  - apply NoDup_cons_iff in Hnd as [Hk Hnd]. destruct (str_eqb_spec k k') as [->|_]; auto.
    destruct Hk. exact (in_map fst _ _ Hin).
Qed.

Lemma in_names_of k h fs :
  In k (names_of h fs) <-> exists hid v, In (k, (hid, v)) fs /\ (h || negb hid = true).
Proof.
  unfold names_of. rewrite in_map_iff. split.
  - intros [[k' [hid v]] [E Hin]]. simpl in E; subst. apply filter_In in Hin. simpl in Hin.
    exists hid, v; tauto.
  - intros (hid & v & Hin & Hv). exists (k, (hid, v)); split; auto. apply filter_In; auto.
Qed.

Lemma has_ex_listed h fs k : has_ex fs k h = true -> In k (fields_ex h fs).
Proof.
  unfold has_ex, fields_ex. rewrite in_isort, in_names_of.
  destruct (lookup k fs) as [[hid v]|] eqn:E; [|discriminate]. intros Hv.
  exists hid, v. split; [apply lookup_in, E|exact Hv].
Qed.

Lemma fields_ex_spec h fs : wf_fields fs -> listing_spec h fs (fields_ex h fs).
Proof.
  intros Hwf. split.
  - apply isort_sorted, NoDup_map_filter, Hwf.
  - intros k. split; [|apply has_ex_listed].
    unfold fields_ex. rewrite in_isort, in_names_of. unfold has_ex.
    intros (hid & v & Hin & Hv). rewrite (in_lookup _ _ _ Hwf Hin). exact Hv.
Qed.

(** * the two visibility routes of obj/mod.rs *)
Definition hidden_of (c : option vis3) : option bool :=
  match c with None => None | Some VisHidden => Some true | Some _ => Some false end.

Lemma field_visibility_idx_spec k decls :
  forall e, hidden_of (field_visibility_idx k decls e) =
            match vis_spec k decls with Some h => Some h | None => if e then Some false else None end.
Proof.
  induction decls as [|[k' v] r IH]; intros e; simpl.
  - destruct e; reflexivity.
  - destruct (str_eqb k k'); auto. destruct v; simpl; auto.
    rewrite IH. destruct (vis_spec k r); reflexivity.
Qed.

(** per-name view of the one-pass map *)
Fixpoint fv_lookup (k : str) (m : list (str * option vis3)) : option vis3 :=
  match m with
  | [] => None
  | (k', c) :: r => if str_eqb k k' then c else fv_lookup k r
  end.

Lemma fv_lookup_update k k1 v m :
  fv_lookup k (fv_update k1 v m) = if str_eqb k k1 then fv_step (fv_lookup k m) v else fv_lookup k m.
Proof.
  induction m as [|[k' c] r IH]; simpl; [reflexivity|].
  destruct (str_eqb_spec k1 k') as [->|Hne]; simpl.
  - destruct (str_eqb k k'); reflexivity.
  - rewrite IH. destruct (str_eqb_spec k k') as [->|]; [|reflexivity].
    destruct (str_eqb_spec k' k1); [congruence|reflexivity].
Qed.

(** an explicit visibility, once stored, is final; until then the remaining declarations decide *)
Lemma fv_lookup_fold k decls : forall m,
  hidden_of (fv_lookup k (fold_left (fun m d => fv_update (fst d) (snd d) m) decls m)) =
  match fv_lookup k m with
  | Some VisHidden => Some true
  | Some VisUnhide => Some false
  | c => match vis_spec k decls with Some h => Some h | None => hidden_of c end
  end.
Proof.
  induction decls as [|[k' v] r IH]; intros m; simpl.
  - destruct (fv_lookup k m) as [[]|]; reflexivity.
  - rewrite IH, fv_lookup_update. destruct (str_eqb k k'); [|reflexivity].
    destruct (fv_lookup k m) as [[]|], v; simpl; try reflexivity; destruct (vis_spec k r); reflexivity.
Qed.

Lemma fields_visibility_spec k decls :
  hidden_of (fv_lookup k (fields_visibility decls)) = vis_spec k decls.
Proof.
  unfold fields_visibility. rewrite fv_lookup_fold. simpl. destruct (vis_spec k decls); reflexivity.
Qed.

Definition fv_wf (m : list (str * option vis3)) : Prop :=
  NoDup (map fst m) /\ Forall (fun e => snd e <> None) m.

Lemma fv_step_some c v : fv_step c v <> None.
Proof. destruct v, c as [[]|]; discriminate. Qed.

Lemma fv_update_keys k v m x : In x (map fst (fv_update k v m)) -> x = k \/ In x (map fst m).
Proof.
  induction m as [|[k' c] r IH]; simpl.
  - intros [<-|[]]. left. reflexivity.
  - destruct (str_eqb k k'); simpl; [auto|].
    intros [E|H]; [auto|]. apply IH in H as [H|H]; auto.
Qed.

Lemma fv_update_wf k v m : fv_wf m -> fv_wf (fv_update k v m).
Proof.
  induction m as [|[k' c] r IH]; intros [Hn Hs]; simpl.
  - split; repeat constructor; [intros []|apply fv_step_some].
  - apply NoDup_cons_iff in Hn as [Hk Hn]. apply Forall_cons_iff in Hs as [Hc Hs].
    destruct (str_eqb_spec k k') as [->|Hne].
    + split; constructor; auto. apply fv_step_some.
    + destruct IH as [IHn IHs]; [split; assumption|]. split; constructor; auto.
      intros Hin. apply fv_update_keys in Hin as [E|Hin]; auto.
Qed.

Lemma fields_visibility_wf decls : fv_wf (fields_visibility decls).
Proof.
  unfold fields_visibility.
  assert (G : forall m, fv_wf m -> fv_wf (fold_left (fun m d => fv_update (fst d) (snd d) m) decls m)).
  { induction decls as [|d r IH]; intros m Hm; simpl; auto using fv_update_wf. }
  apply G. split; constructor.
Qed.

Lemma fv_lookup_in k m c : NoDup (map fst m) -> In (k, c) m -> fv_lookup k m = c.
Proof.
  induction m as [|[k' c'] r IH]; simpl; [tauto|]. intros Hnd [[= -> ->]|Hin].
  - rewrite str_eqb_refl. reflexivity.
  - apply NoDup_cons_iff in Hnd as [Hk Hnd]. destruct (str_eqb_spec k k') as [->|_]; auto.
    destruct Hk. exact (in_map fst _ _ Hin).
Qed.
Lemma fv_lookup_some_in k m v : fv_lookup k m = Some v -> In (k, Some v) m.
Proof.
  induction m as [|[k' c'] r IH]; simpl; [discriminate|].
  destruct (str_eqb_spec k k') as [->|_]; [intros ->; left; reflexivity|auto].
Qed.

(** * std.prune *)
(** the [VObj] cases of [clean], [bomb_free] are convertible to [clean_fields], [bomb_free_fields] *)
Fixpoint prune_list (l : list val) : res (list val) :=
  match l with
  | [] => Ok []
  | x :: r => bind (prune x) (fun x' => bind (prune_list r) (fun r' =>
                Ok (if is_content x' then x' :: r' else r')))
  end.
Fixpoint prune_fields (fs : fields) : res fields :=
  match fs with
  | [] => Ok []
  | (k, (h, x)) :: r =>
      if h then prune_fields r
      else bind (prune x) (fun x' => bind (prune_fields r) (fun r' =>
             Ok (if is_content x' then (k, (false, x')) :: r' else r')))
  end.
Fixpoint clean_fields (fs : fields) : bool :=
  match fs with
  | [] => true
  | (_, (h, x)) :: r => negb h && (is_content x && clean x) && clean_fields r
  end.
Fixpoint bomb_free_fields (fs : fields) : bool :=
  match fs with [] => true | (_, (_, x)) :: r => bomb_free x && bomb_free_fields r end.

Lemma prune_arr l : prune (VArr l) = bind (prune_list l) (fun l' => Ok (VArr l')).
Proof. reflexivity. Qed.
Lemma prune_obj fs : prune (VObj fs) = bind (prune_fields fs) (fun fs' => Ok (VObj fs')).
Proof. reflexivity. Qed.

Lemma prune_list_clean l :
  Forall (fun x => forall x', prune x = Ok x' -> clean x' = true) l ->
  forall l', prune_list l = Ok l' -> forallb (fun x => is_content x && clean x) l' = true.
Proof.
  induction 1 as [|x r Hx _ IH]; simpl; intros l' G.
  - injection G as <-. reflexivity.
  - apply bind_ok in G as (x' & Px & G). apply bind_ok in G as (r' & Pr & [= <-]).
    specialize (IH _ Pr). destruct (is_content x') eqn:C; [|exact IH].
    simpl. rewrite C, (Hx _ Px). exact IH.
Qed.

Lemma prune_fields_clean fs :
  Forall (fun f => forall x', prune (snd (snd f)) = Ok x' -> clean x' = true) fs ->
  forall fs', prune_fields fs = Ok fs' -> clean_fields fs' = true.
Proof.
  induction 1 as [|[k [[] x]] r Hx _ IH]; simpl; intros fs' G; auto.
  - injection G as <-. reflexivity.
  - apply bind_ok in G as (x' & Px & G). apply bind_ok in G as (r' & Pr & [= <-]).
    specialize (IH _ Pr). destruct (is_content x') eqn:C; [|exact IH].
    simpl. rewrite C, (Hx _ Px). exact IH.
Qed.

Lemma prune_clean v : forall v', prune v = Ok v' -> clean v' = true.
Proof.
  induction v using val_ind2; intros v' Hp;
    try (simpl in Hp; injection Hp as <-; reflexivity); try (simpl in Hp; discriminate).
  - rewrite prune_arr in Hp. apply bind_ok in Hp as (l' & G & [= <-]).
    exact (prune_list_clean l H l' G).
  - rewrite prune_obj in Hp. apply bind_ok in Hp as (fs' & G & [= <-]).
    exact (prune_fields_clean fs H fs' G).
Qed.

Lemma prune_list_fix l :
  Forall (fun x => clean x = true -> prune x = Ok x) l ->
  forallb (fun x => is_content x && clean x) l = true -> prune_list l = Ok l.
Proof.
  induction 1 as [|x r Hx _ IH]; simpl; intros Hc; [reflexivity|].
  apply andb_prop in Hc as [Hc Hr]. apply andb_prop in Hc as [C1 C2].
  rewrite (Hx C2). simpl. rewrite (IH Hr). simpl. rewrite C1. reflexivity.
Qed.

Lemma prune_fields_fix fs :
  Forall (fun f => clean (snd (snd f)) = true -> prune (snd (snd f)) = Ok (snd (snd f))) fs ->
  clean_fields fs = true -> prune_fields fs = Ok fs.
Proof.
  induction 1 as [|[k [h x]] r Hx _ IH]; simpl; intros Hc; [reflexivity|].
  apply andb_prop in Hc as [Hc Hr]. apply andb_prop in Hc as [Hh Hc]. apply andb_prop in Hc as [C1 C2].
  destruct h; [discriminate|]. simpl in Hx.
  rewrite (Hx C2). simpl. rewrite (IH Hr). simpl. rewrite C1. reflexivity.
Qed.

Lemma prune_fixpoint v : clean v = true -> prune v = Ok v.
Proof.
  induction v using val_ind2; intros Hc; try reflexivity; try discriminate.
  - rewrite prune_arr, (prune_list_fix l H Hc). reflexivity.
  - rewrite prune_obj, (prune_fields_fix fs H Hc). reflexivity.
Qed.

Lemma prune_list_total l :
  Forall (fun x => bomb_free x = true -> exists x', prune x = Ok x') l ->
  forallb bomb_free l = true -> exists l', prune_list l = Ok l'.
Proof.
  induction 1 as [|x r Hx _ IH]; simpl; intros Hb; [eauto|].
  apply andb_prop in Hb as [B1 B2]. destruct (Hx B1) as [x' ->]. destruct (IH B2) as [r' ->].
  simpl. eauto.
Qed.

Lemma prune_fields_total fs :
  Forall (fun f => bomb_free (snd (snd f)) = true -> exists x', prune (snd (snd f)) = Ok x') fs ->
  bomb_free_fields fs = true -> exists fs', prune_fields fs = Ok fs'.
Proof.
  induction 1 as [|[k [h x]] r Hx _ IH]; simpl; intros Hb; [eauto|].
  apply andb_prop in Hb as [B1 B2]. destruct (IH B2) as [r' Er]. destruct h; [eauto|].
  simpl in Hx. destruct (Hx B1) as [x' ->]. rewrite Er. simpl. eauto.
Qed.

Lemma prune_total v : bomb_free v = true -> exists v', prune v = Ok v'.
Proof.
  induction v using val_ind2; intros Hb; try (eexists; reflexivity); try discriminate.
  - rewrite prune_arr. destruct (prune_list_total l H Hb) as [l' ->]. simpl. eauto.
  - rewrite prune_obj. destruct (prune_fields_total fs H Hb) as [fs' ->]. simpl. eauto.
Qed.

(** * JSON values in canonical form *)
Fixpoint json_fields (fs : fields) : bool :=
  match fs with [] => true | (_, (h, x)) :: r => negb h && json x && json_fields r end.
Lemma json_obj fs : json (VObj fs) = sorted_names (map fst fs) && json_fields fs.
Proof. reflexivity. Qed.

Lemma sorted_names_strongly l : sorted_names l = true -> StronglySorted str_lt l.
Proof.
  intros H. apply Sorted_StronglySorted.
  - intros a b c. apply str_lt_trans.
  - induction l as [|x r IH]; [constructor|]. simpl in H. apply andb_prop in H as [H1 H2].
    constructor; auto. destruct r; constructor. apply str_ltb_lt, H1.
Qed.

Lemma json_fields_in fs k h v : json_fields fs = true -> In (k, (h, v)) fs -> h = false /\ json v = true.
Proof.
  induction fs as [|[k' [h' x]] r IH]; simpl; [tauto|]. intros Hj [[= -> -> ->]|Hin].
  - apply andb_prop in Hj as [Hj _]. apply andb_prop in Hj as [A B].
    destruct h; [discriminate A|auto].
  - apply andb_prop in Hj as [_ Hj]. auto.
Qed.

Lemma json_not_bomb v : json v = true -> is_bomb v = false.
Proof. destruct v; try reflexivity; discriminate. Qed.

(** field list of a canonical JSON object *)
Definition jf (fs : fields) : Prop :=
  StronglySorted str_lt (map fst fs) /\ json_fields fs = true.

Lemma jf_obj_fields t : json t = true -> jf (obj_fields t).
Proof.
  destruct t; simpl; intros H; try (split; [constructor|reflexivity]).
  change (json (VObj fs) = true) in H. rewrite json_obj in H. apply andb_prop in H as [A B].
  split; [apply sorted_names_strongly, A|exact B].
Qed.

Lemma jf_wf fs : jf fs -> wf_fields fs.
Proof. intros [H _]. apply sorted_nodup, H. Qed.

Lemma jf_lookup fs k h v : jf fs -> lookup k fs = Some (h, v) -> h = false /\ json v = true.
Proof. intros [_ Hj] L. exact (json_fields_in _ _ _ _ Hj (lookup_in _ _ _ L)). Qed.

Lemma jf_value_json fs k : jf fs -> json (value_of k fs) = true.
Proof.
  intros J. unfold value_of. destruct (lookup k fs) as [[h v]|] eqn:L; [|reflexivity].
  apply (jf_lookup _ _ _ _ J L).
Qed.

Lemma jf_has fs k : jf fs ->
  has_ex fs k false = match lookup k fs with Some _ => true | None => false end.
Proof.
  intros J. unfold has_ex. destruct (lookup k fs) as [[h v]|] eqn:L; [|reflexivity].
  destruct (jf_lookup _ _ _ _ J L) as [-> _]. reflexivity.
Qed.

Lemma jf_vlookup fs k : jf fs ->
  vlookup k fs = match lookup k fs with Some (_, v) => Some v | None => None end.
Proof.
  intros J. unfold vlookup. destruct (lookup k fs) as [[h v]|] eqn:L; [|reflexivity].
  destruct (jf_lookup _ _ _ _ J L) as [-> _]. reflexivity.
Qed.

(** * std.mergePatch *)
(** the local loop of [mp_impl] *)
Section MpLoop.
  Variable F : val -> val -> res val.
  Variables tf pf : fields.
  Fixpoint mp_loop (keys : list str) : res fields :=
    match keys with
    | [] => Ok []
    | k :: ks =>
        match vlookup k pf with
        | None => bind (mp_loop ks) (fun r => Ok ((k, (false, value_of k tf)) :: r))
        | Some (VBomb _) => Err ERun
        | Some VNull => mp_loop ks
        | Some pv =>
            bind (match vlookup k tf with Some tv => force tv | None => Ok VNull end)
                 (fun tv => bind (F tv pv)
                                 (fun v => bind (mp_loop ks) (fun r => Ok ((k, (false, v)) :: r))))
        end
    end.
End MpLoop.

Lemma mp_impl_obj n t pf :
  is_bomb t = false ->
  mp_impl (S n) t (VObj pf) =
  bind (mp_loop (mp_impl n) (obj_fields t) pf
                (union_sorted (fields_ex false (obj_fields t)) (fields_ex false pf)))
       (fun out => Ok (VObj out)).
Proof.
  (* [cbn] first: unifying the unreduced call is slow *)
  intros H; destruct t; try discriminate H; cbn [mp_impl]; reflexivity.
Qed.

Definition is_null (v : val) : bool := match v with VNull => true | _ => false end.

Lemma mp_loop_cons F tf pf k ks :
  mp_loop F tf pf (k :: ks) =
  match vlookup k pf with
  | None => bind (mp_loop F tf pf ks) (fun r => Ok ((k, (false, value_of k tf)) :: r))
  | Some pv =>
      if is_bomb pv then Err ERun
      else if is_null pv then mp_loop F tf pf ks
      else bind (match vlookup k tf with Some tv => force tv | None => Ok VNull end)
                (fun tv => bind (F tv pv)
                                (fun v => bind (mp_loop F tf pf ks) (fun r => Ok ((k, (false, v)) :: r))))
  end.
Proof. simpl. destruct (vlookup k pf) as [[]|]; reflexivity. Qed.

(** field [k] of the result for the patch member [pv] *)
Definition patch_field (G : val -> val -> val) (acc : fields) (k : str) (pv : val) : option (bool * val) :=
  if is_null pv then None else Some (false, G (value_of k acc) pv).

(** the loop's result when the recursive calls compute [G] *)
Definition mp_field (G : val -> val -> val) (tf pf : fields) (k : str) : option (bool * val) :=
  match lookup k pf with
  | None => Some (false, value_of k tf)
  | Some (_, pv) => patch_field G tf k pv
  end.
Fixpoint mp_out (G : val -> val -> val) (tf pf : fields) (keys : list str) : fields :=
  match keys with
  | [] => []
  | k :: ks => match mp_field G tf pf k with
               | Some hv => (k, hv) :: mp_out G tf pf ks
               | None => mp_out G tf pf ks
               end
  end.

Lemma mp_loop_out F G tf pf keys :
  jf tf -> jf pf ->
  (forall k h pv, lookup k pf = Some (h, pv) -> F (value_of k tf) pv = Ok (G (value_of k tf) pv)) ->
  mp_loop F tf pf keys = Ok (mp_out G tf pf keys).
Proof.
  intros Jt Jp HF.
  assert (Htv : forall k, match vlookup k tf with Some tv => force tv | None => Ok VNull end
                          = Ok (value_of k tf)).
  { intros k. rewrite (jf_vlookup _ _ Jt). unfold value_of.
    destruct (lookup k tf) as [[h v]|] eqn:L; [|reflexivity].
    destruct (jf_lookup _ _ _ _ Jt L) as [_ Jv]. destruct v; try discriminate Jv; reflexivity. }
  induction keys as [|k ks IH]; [reflexivity|].
  rewrite mp_loop_cons, (jf_vlookup _ _ Jp). cbn [mp_out]. unfold mp_field, patch_field.
  destruct (lookup k pf) as [[h pv]|] eqn:L.
  - destruct (jf_lookup _ _ _ _ Jp L) as [_ Jpv]. rewrite (json_not_bomb _ Jpv).
    destruct (is_null pv); [exact IH|].
    rewrite Htv. cbn [bind]. rewrite (HF _ _ _ L). cbn [bind]. rewrite IH. reflexivity.
  - rewrite IH. reflexivity.
Qed.

Lemma mem_in k l : mem k l = true <-> In k l.
Proof.
  unfold mem. rewrite existsb_exists. split.
  - intros [x [Hin E]]. destruct (str_eqb_spec k x) as [->|]; [exact Hin|discriminate].
  - intros Hin. exists k. split; [exact Hin|apply str_eqb_refl].
Qed.

Lemma lookup_mp_out G tf pf keys k :
  lookup k (mp_out G tf pf keys) = if mem k keys then mp_field G tf pf k else None.
Proof.
  induction keys as [|k1 ks IH]; simpl; [reflexivity|].
  destruct (mp_field G tf pf k1) eqn:M; simpl; rewrite IH; destruct (str_eqb_spec k k1) as [->|_].
  - symmetry. exact M.
  - reflexivity.
  - rewrite M. destruct (mem k1 ks); reflexivity.
  - reflexivity.
Qed.

Lemma mp_out_names G tf pf keys x : In x (map fst (mp_out G tf pf keys)) -> In x keys.
Proof.
  induction keys as [|k ks IH]; simpl; auto.
  destruct (mp_field G tf pf k); simpl; [intros [E|H]|]; auto.
Qed.
Lemma mp_out_sorted G tf pf keys :
  StronglySorted str_lt keys -> StronglySorted str_lt (map fst (mp_out G tf pf keys)).
Proof.
  induction 1 as [|k ks Hs IH Hall]; simpl; [constructor|].
  destruct (mp_field G tf pf k); simpl; auto. constructor; auto.
  revert Hall. apply incl_Forall. intros x. apply mp_out_names.
Qed.

(** ** RFC 7396's fold *)
Definition rfc_step (F : val -> val -> val) (k : str) (pv : val) (acc : fields) : fields :=
  match pv with
  | VNull => remove_key k acc
  | _ => set_field k (F (value_of k acc) pv) acc
  end.
Section RfcGo.
  Variable F : val -> val -> val.
  Fixpoint rfc_go (pf acc : fields) : fields :=
    match pf with
    | [] => acc
    | (k, (_, pv)) :: r => rfc_go r (rfc_step F k pv acc)
    end.
End RfcGo.
Lemma rfc_obj t pf : rfc7396 t (VObj pf) = VObj (rfc_go rfc7396 pf (obj_fields t)).
Proof. reflexivity. Qed.

Lemma lookup_set_field k k1 v fs :
  lookup k (set_field k1 v fs) = if str_eqb k k1 then Some (false, v) else lookup k fs.
Proof.
  induction fs as [|[k' hv] r IH]; simpl; [reflexivity|].
  destruct (str_cmp_spec k1 k') as [<-|L|L]; simpl.
  - destruct (str_eqb k k1); reflexivity.
  - reflexivity.
  - rewrite IH. destruct (str_eqb_spec k k1) as [->|]; [|reflexivity].
    destruct (str_eqb_spec k1 k') as [->|]; [destruct (str_lt_irrefl _ L)|reflexivity].
Qed.
Lemma lookup_remove_key k k1 fs :
  lookup k (remove_key k1 fs) = if str_eqb k k1 then None else lookup k fs.
Proof.
  unfold remove_key. induction fs as [|[k' hv] r IH]; simpl.
  - destruct (str_eqb k k1); reflexivity.
  - destruct (str_eqb_spec k1 k') as [<-|Hne]; simpl; rewrite IH.
    + destruct (str_eqb k k1); reflexivity.
    + destruct (str_eqb_spec k k1) as [->|]; [|reflexivity].
      destruct (str_eqb_spec k1 k'); [contradiction|reflexivity].
Qed.

Lemma lookup_rfc_step F k k1 pv acc :
  lookup k (rfc_step F k1 pv acc) = if str_eqb k k1 then patch_field F acc k1 pv else lookup k acc.
Proof.
  unfold rfc_step, patch_field. destruct pv; try apply lookup_set_field. apply lookup_remove_key.
Qed.

Lemma lookup_rfc_go F pf : forall acc k,
  NoDup (map fst pf) ->
  lookup k (rfc_go F pf acc) =
  match lookup k pf with None => lookup k acc | Some (_, pv) => patch_field F acc k pv end.
Proof.
  induction pf as [|[k1 [h1 pv1]] r IH]; intros acc k Hnd; simpl; [reflexivity|].
  apply NoDup_cons_iff in Hnd as [Hk Hnd]. rewrite IH by exact Hnd.
  destruct (str_eqb_spec k k1) as [->|Hne].
  - rewrite (proj2 (lookup_none k1 r) Hk), lookup_rfc_step, str_eqb_refl. reflexivity.
  - unfold patch_field, value_of. rewrite lookup_rfc_step.
    destruct (str_eqb_spec k k1); [contradiction|reflexivity].
Qed.

Lemma set_field_names k v fs x : In x (map fst (set_field k v fs)) -> x = k \/ In x (map fst fs).
Proof.
  induction fs as [|[k' hv] r IH]; simpl.
  - intros [<-|[]]. left. reflexivity.
  - destruct (str_cmp_spec k k') as [<-|_|_]; simpl; intros [E|H]; auto.
    apply IH in H as [H|H]; auto.
Qed.
Lemma set_field_sorted k v fs :
  StronglySorted str_lt (map fst fs) -> StronglySorted str_lt (map fst (set_field k v fs)).
Proof.
  induction fs as [|[k' hv] r IH]; simpl; intros Hs.
  - repeat constructor.
  - apply StronglySorted_inv in Hs as [Hs Hall]. destruct (str_cmp_spec k k') as [<-|L|L]; simpl.
    + constructor; assumption.
    + repeat constructor; auto. exact (str_lt_Forall _ _ _ L Hall).
    + constructor; auto. apply Forall_forall. intros x Hx.
      apply set_field_names in Hx as [->|Hx]; [exact L|].
      rewrite Forall_forall in Hall. auto.
Qed.
Lemma rfc_go_sorted F pf : forall acc,
  StronglySorted str_lt (map fst acc) -> StronglySorted str_lt (map fst (rfc_go F pf acc)).
Proof.
  induction pf as [|[k [h pv]] r IH]; intros acc Hs; simpl; [exact Hs|].
  apply IH. unfold rfc_step.
  destruct pv; try (apply set_field_sorted, Hs). apply sorted_map_filter, Hs.
Qed.

Lemma lookup_below k fs : Forall (str_lt k) (map fst fs) -> lookup k fs = None.
Proof.
  intros H. apply lookup_none. intros Hin. rewrite Forall_forall in H.
  exact (str_lt_irrefl k (H k Hin)).
Qed.

Lemma sorted_fields_ext (l1 : fields) : forall l2 : fields,
  StronglySorted str_lt (map fst l1) -> StronglySorted str_lt (map fst l2) ->
  (forall k, lookup k l1 = lookup k l2) -> l1 = l2.
Proof.
  induction l1 as [|[k1 hv1] r1 IH]; intros [|[k2 hv2] r2] H1 H2 Hl; simpl in *.
  - reflexivity.
  - specialize (Hl k2). rewrite str_eqb_refl in Hl. discriminate.
  - specialize (Hl k1). rewrite str_eqb_refl in Hl. discriminate.
  - apply StronglySorted_inv in H1 as [S1 A1]. apply StronglySorted_inv in H2 as [S2 A2].
    assert (E : k1 = k2).
    { (* the smaller head would be missing from the other list *)
      destruct (str_cmp_spec k1 k2) as [E|L|L]; [exact E| |]; exfalso.
      - specialize (Hl k1). rewrite str_eqb_refl in Hl.
        destruct (str_eqb_spec k1 k2) as [E|_]; [exact (str_lt_neq _ _ L E)|].
        rewrite (lookup_below k1 r2) in Hl by exact (str_lt_Forall _ _ _ L A2). discriminate.
      - specialize (Hl k2). rewrite str_eqb_refl in Hl.
        destruct (str_eqb_spec k2 k1) as [E|_]; [exact (str_lt_neq _ _ L E)|].
        rewrite (lookup_below k2 r1) in Hl by exact (str_lt_Forall _ _ _ L A1). discriminate. }
    subst k2. pose proof (Hl k1) as E. rewrite str_eqb_refl in E. injection E as <-.
    f_equal. apply IH; auto. intros k. specialize (Hl k).
    destruct (str_eqb_spec k k1) as [E|_]; [rewrite E|exact Hl].
    rewrite !lookup_below by assumption. reflexivity.
Qed.

Lemma union_sorted_cons x a' y b' :
  union_sorted (x :: a') (y :: b') =
  match str_cmp x y with
  | Lt => x :: union_sorted a' (y :: b')
  | Eq => x :: union_sorted a' b'
  | Gt => y :: union_sorted (x :: a') b'
  end.
Proof. reflexivity. Qed.

Lemma union_sorted_nil_l b : union_sorted [] b = b.
Proof. destruct b; reflexivity. Qed.
Lemma union_sorted_nil_r a : union_sorted a [] = a.
Proof. destruct a; reflexivity. Qed.

Lemma in_union_sorted k a : forall b, In k (union_sorted a b) <-> In k a \/ In k b.
Proof.
  induction a as [|x a' IHa]; intros b.
  - rewrite union_sorted_nil_l. split; [auto|intros [[]|H]; exact H].
  - induction b as [|y b' IHb].
    + rewrite union_sorted_nil_r. split; [auto|intros [H|[]]; exact H].
    + rewrite union_sorted_cons. destruct (str_cmp_spec x y) as [<-|_|_]; cbn [In].
      * rewrite IHa. split; [intros [E|[H|H]]|intros [[E|H]|[E|H]]]; auto.
      * rewrite IHa. symmetry. apply or_assoc.
      * rewrite IHb. cbn [In]. split; [intros [E|[H|H]]|intros [H|[E|H]]]; auto.
Qed.

Lemma Forall_union_sorted (P : str -> Prop) a b :
  Forall P a -> Forall P b -> Forall P (union_sorted a b).
Proof.
  rewrite !Forall_forall. intros Ha Hb k Hk. apply in_union_sorted in Hk as [Hk|Hk]; auto.
Qed.

Lemma union_sorted_sorted a : forall b,
  StronglySorted str_lt a -> StronglySorted str_lt b -> StronglySorted str_lt (union_sorted a b).
Proof.
  induction a as [|x a' IHa]; intros b Ha Hb.
  - rewrite union_sorted_nil_l. exact Hb.
  - induction b as [|y b' IHb]; [exact Ha|].
    rewrite union_sorted_cons.
    destruct (StronglySorted_inv Ha) as [Sa Aa]. destruct (StronglySorted_inv Hb) as [Sb Ab].
    destruct (str_cmp_spec x y) as [<-|L|L]; constructor; auto; apply Forall_union_sorted; auto.
    + constructor; [exact L|exact (str_lt_Forall _ _ _ L Ab)].
    + constructor; [exact L|exact (str_lt_Forall _ _ _ L Aa)].
Qed.

Lemma mem_union k a b : mem k (union_sorted a b) = mem k a || mem k b.
Proof.
  apply eq_iff_eq_true. rewrite orb_true_iff, !mem_in. apply in_union_sorted.
Qed.
Lemma mem_fields_ex k h fs : wf_fields fs -> mem k (fields_ex h fs) = has_ex fs k h.
Proof.
  intros W. apply eq_iff_eq_true. rewrite mem_in. apply fields_ex_spec, W.
Qed.

Fixpoint depth_fields (fs : fields) : nat :=
  match fs with [] => O | (_, (_, x)) :: r => Nat.max (depth x) (depth_fields r) end.
Lemma depth_obj fs : depth (VObj fs) = S (depth_fields fs).
Proof. reflexivity. Qed.
Lemma depth_fields_in fs k h v : In (k, (h, v)) fs -> (depth v <= depth_fields fs)%nat.
Proof.
  induction fs as [|[k' [h' x]] r IH]; simpl; [tauto|]. intros [[= -> -> ->]|Hin].
  - apply Nat.le_max_l.
  - etransitivity; [exact (IH Hin)|apply Nat.le_max_r].
Qed.
Lemma depth_pos v : (1 <= depth v)%nat.
Proof. destruct v; simpl; lia. Qed.

Lemma mp_loop_inv F tf pf k ks out :
  mp_loop F tf pf (k :: ks) = Ok out ->
  exists r, mp_loop F tf pf ks = Ok r /\ (out = r \/ exists hv, out = (k, hv) :: r).
Proof.
  rewrite mp_loop_cons. intros H. destruct (vlookup k pf) as [pv|].
  - destruct (is_bomb pv); [discriminate H|]. destruct (is_null pv).
    + exists out. auto.
    + apply bind_ok in H as (tv & _ & H). apply bind_ok in H as (v & _ & H).
      apply bind_ok in H as (r & Hr & [= <-]).
      exists r. split; [exact Hr|right; eexists; reflexivity].
  - apply bind_ok in H as (r & Hr & [= <-]).
    exists r. split; [exact Hr|right; eexists; reflexivity].
Qed.

Lemma mp_loop_untouched F tf pf keys : forall out k,
  mp_loop F tf pf keys = Ok out -> In k keys -> vlookup k pf = None ->
  lookup k out = Some (false, value_of k tf).
Proof.
  induction keys as [|k1 ks IH]; intros out k Hl Hin Hp; [destruct Hin|].
  destruct (str_eqb_spec k k1) as [<-|Hne].
  - rewrite mp_loop_cons, Hp in Hl. apply bind_ok in Hl as (r & _ & [= <-]).
    simpl. rewrite str_eqb_refl. reflexivity.
  - destruct Hin as [->|Hin]; [contradiction|].
    apply mp_loop_inv in Hl as (r & Hr & [->|[hv ->]]); simpl;
      [|destruct (str_eqb_spec k k1); [contradiction|]]; eauto.
Qed.

(** not mentioned VISIBLY: absent or hidden in the patch *)
Lemma mergepatch_lazy n t pf out k :
  mp_impl (S n) t (VObj pf) = Ok (VObj out) ->
  has_ex (obj_fields t) k false = true -> vlookup k pf = None ->
  lookup k out = Some (false, value_of k (obj_fields t)).
Proof.
  intros Hm Hh Hp.
  assert (Bt : is_bomb t = false) by (destruct t; try reflexivity; discriminate Hm).
  rewrite mp_impl_obj in Hm by exact Bt. apply bind_ok in Hm as (o & L & [= <-]).
  eapply mp_loop_untouched; [exact L| |exact Hp].
  apply in_union_sorted. left. apply has_ex_listed, Hh.
Qed.

(** * std.equals *)
Section EqLoops.
  Variable E : val -> val -> res bool.
  Fixpoint eq_list (la lb : list val) : res bool :=
    match la, lb with
    | x :: r, y :: s => bind (E x y) (fun e => if e then eq_list r s else Ok false)
    | _, _ => Ok true
    end.
  Fixpoint eq_fields (fa : fields) (vb : list val) : res bool :=
    match fa with
    | [] => Ok true
    | (_, (h, x)) :: r =>
        if h then eq_fields r vb
        else match vb with
             | y :: vb' => bind (E x y) (fun e => if e then eq_fields r vb' else Ok false)
             | [] => Ok true
             end
    end.
End EqLoops.

Lemma equals_core_arr la lb :
  equals_core (VArr la) (VArr lb) =
  if negb (Nat.eqb (length la) (length lb)) then Ok false else eq_list equals_core la lb.
Proof. reflexivity. Qed.
Lemma equals_core_obj fa fb :
  equals_core (VObj fa) (VObj fb) =
  if negb (list_str_eqb (names_of false fa) (names_of false fb)) then Ok false
  else eq_fields equals_core fa (map (fun f => snd (snd f)) (filter (fun f => negb (fst (snd f))) fb)).
Proof. reflexivity. Qed.

Lemma list_str_eqb_spec a : forall b, reflect (a = b) (list_str_eqb a b).
Proof.
  induction a as [|x a IH]; intros [|y b]; simpl; try (constructor; congruence).
  destruct (str_eqb_spec x y) as [->|]; simpl; [|constructor; congruence].
  destruct (IH b) as [->|]; constructor; congruence.
Qed.

Lemma json_fields_visible fs : json_fields fs = true ->
  names_of false fs = map fst fs /\ filter (fun f => negb (fst (snd f))) fs = fs.
Proof.
  unfold names_of. induction fs as [|[k [h x]] r IH]; simpl; auto. intros H.
  apply andb_prop in H as [H1 H2]. apply andb_prop in H1 as [H0 _].
  destruct h; [discriminate H0|]. simpl in *. destruct (IH H2) as [A B]. rewrite A, B. auto.
Qed.

(** [E x] answers every canonical [b] and says whether it is [x] *)
Definition decides (E : val -> val -> res bool) (x : val) : Prop :=
  forall b, json b = true -> E x b = Ok true /\ x = b \/ E x b = Ok false /\ x <> b.

Lemma eq_list_decides E la : Forall (decides E) la -> forall lb,
  length la = length lb -> forallb json lb = true ->
  eq_list E la lb = Ok true /\ la = lb \/ eq_list E la lb = Ok false /\ la <> lb.
Proof.
  induction 1 as [|x r Hx Hr IH]; intros [|y s] Hlen Hj; try discriminate Hlen.
  - left. split; reflexivity.
  - injection Hlen as Hlen. apply andb_prop in Hj as [J1 J2]. cbn [eq_list].
    destruct (Hx y J1) as [[-> ->]|[-> Hne]]; cbn [bind].
    + destruct (IH s Hlen J2) as [[He ->]|[He Hne]]; [left|right]; split; auto.
      intros [= Q]. exact (Hne Q).
    + right. split; [reflexivity|]. intros [= Q _]. exact (Hne Q).
Qed.

Lemma eq_fields_decides E fa : Forall (fun f => decides E (snd (snd f))) fa -> forall fb,
  json_fields fa = true -> json_fields fb = true -> map fst fa = map fst fb ->
  let vb := map (fun f => snd (snd f)) fb in
  eq_fields E fa vb = Ok true /\ fa = fb \/ eq_fields E fa vb = Ok false /\ fa <> fb.
Proof.
  induction 1 as [|[k [h x]] r Hx Hr IH]; intros [|[k' [h' y]] s] Ja Jb Hn; try discriminate Hn.
  - left. split; reflexivity.
  - cbn [json_fields] in Ja, Jb. cbn [snd] in Hx.
    apply andb_prop in Ja as [Ja Ja2]. apply andb_prop in Ja as [Ha Jx].
    apply andb_prop in Jb as [Jb Jb2]. apply andb_prop in Jb as [Hb Jy].
    destruct h; [discriminate Ha|]. destruct h'; [discriminate Hb|].
    injection Hn as <- Hn. cbn [eq_fields map snd].
    destruct (Hx y Jy) as [[-> ->]|[-> Hne]]; cbn [bind].
    + destruct (IH s Ja2 Jb2 Hn) as [[He ->]|[He Hne]]; [left|right]; split; auto.
      intros [= Q]. exact (Hne Q).
    + right. split; [reflexivity|]. intros [= Q _]. exact (Hne Q).
Qed.

Lemma equals_core_decides a : json a = true -> decides equals_core a.
Proof.
  induction a using val_ind2; intros Ja w Jw; try discriminate Ja;
    destruct w as [|b'|z'|s'|lb|fb| |]; try discriminate Jw;
    try (right; split; [reflexivity|discriminate]).
  - left. split; reflexivity.
  - cbn. destruct (Bool.eqb_spec b b') as [->|N]; [left|right]; split; congruence.
  - cbn. destruct (Z.eqb_spec z z') as [->|N]; [left|right]; split; congruence.
  - cbn. destruct (str_eqb_spec s s') as [->|N]; [left|right]; split; congruence.
  - rewrite equals_core_arr. cbn [json] in Ja, Jw.
    destruct (Nat.eqb_spec (length l) (length lb)) as [L|L]; cbn [negb].
    + destruct (eq_list_decides equals_core l) with (lb := lb) as [[-> ->]|[-> N]]; auto.
      * rewrite forallb_forall in Ja. rewrite Forall_forall in *. auto.
      * right. split; congruence.
    + right. split; congruence.
  - rewrite equals_core_obj. rewrite json_obj in Ja, Jw.
    apply andb_prop in Ja as [_ Ja]. apply andb_prop in Jw as [_ Jb].
    destruct (json_fields_visible _ Ja) as [Na _]. destruct (json_fields_visible _ Jb) as [Nb Fb].
    rewrite Na, Nb, Fb.
    destruct (list_str_eqb_spec (map fst fs) (map fst fb)) as [L|L]; cbn [negb].
    + destruct (eq_fields_decides equals_core fs) with (fb := fb) as [[-> ->]|[-> N]]; auto.
      * rewrite Forall_forall in *. intros [k [h x]] Hx. apply (H _ Hx).
        apply (json_fields_in _ _ _ _ Ja Hx).
      * right. split; congruence.
    + right. split; congruence.
Qed.

Fixpoint norm_fields (fs : fields) : fields :=
  match fs with
  | [] => []
  | (k, (h, x)) :: r => insert_field (k, (h, norm x)) (norm_fields r)
  end.
Lemma norm_obj fs : norm (VObj fs) = VObj (norm_fields fs).
Proof. reflexivity. Qed.

Lemma norm_json v : json v = true -> norm v = v.
Proof.
  induction v using val_ind2; intros J; try reflexivity.
  - simpl. f_equal. simpl in J. induction H as [|x r Hx Hr IH]; simpl; auto.
    simpl in J. apply andb_prop in J as [J1 J2]. rewrite Hx, IH; auto.
  - rewrite norm_obj. f_equal. rewrite json_obj in J. apply andb_prop in J as [S J].
    induction H as [|[k [h x]] r Hx Hr IH]; simpl; auto.
    simpl in J, S, Hx. apply andb_prop in J as [J1 J2]. apply andb_prop in J1 as [_ Jx].
    apply andb_prop in S as [S1 S2].
    rewrite IH, Hx; auto. destruct r as [|[k' hv'] r']; simpl; auto.
    (* k < k', so k' is not below k and the field stays in front *)
    simpl in S1. unfold str_ltb in *. rewrite (str_cmp_antisym k k').
    destruct (str_cmp k k'); try discriminate S1. reflexivity.
Qed.

Lemma equals_spec_json a b : json a = true -> json b = true -> equals_spec a b = equals_core a b.
Proof. intros Ja Jb. unfold equals_spec. rewrite !norm_json; auto. Qed.

Lemma equals_spec_decides a : json a = true -> decides equals_spec a.
Proof. intros Ja b Jb. rewrite equals_spec_json by assumption. apply equals_core_decides; assumption. Qed.

(** * std.type *)
Lemma ty_eqb_eq a b : ty_eqb a b = true <-> a = b.
Proof.
  split; [|intros ->; destruct b; reflexivity].
  destruct a, b; try discriminate; reflexivity.
Qed.

(** the seven names differ already in (first code point, length) *)
Lemma ty_name_inj a b : ty_name a = ty_name b -> a = b.
Proof.
  intros H. apply (f_equal (fun s => (hd 0%N s, length s))) in H.
  destruct a, b; try reflexivity; discriminate H.
Qed.

(** * non-vacuity *)
Definition nm (s : string) : str := lit s.

Example wf_ex : wf_fields [(nm "b", (false, VNum 1)); (nm "a", (true, VBomb 7))].
Proof. repeat constructor; simpl; intuition; discriminate. Qed.
Example json_ex :
  json (VObj [(nm "a", (false, VArr [VNum 1; VNull])); (nm "b", (false, VObj [(nm "c", (false, VStr (nm "x")))]))]) = true.
Proof. reflexivity. Qed.
Example mergepatch_ex :
  let t := VObj [(nm "a", (false, VObj [(nm "x", (false, VNum 1))])); (nm "b", (false, VNum 2))] in
  let p := VObj [(nm "a", (false, VObj [(nm "x", (false, VNull)); (nm "y", (false, VNum 3))])); (nm "c", (false, VStr (nm "n")))] in
  json t = true /\ json p = true /\ (depth p < 4)%nat /\
  mp_impl 4 t p = Ok (VObj [(nm "a", (false, VObj [(nm "y", (false, VNum 3))])); (nm "b", (false, VNum 2));
                            (nm "c", (false, VStr (nm "n")))]).
Proof. vm_compute. repeat split; auto. Qed.
Example mergepatch_lazy_ex :
  mp_impl 3 (VObj [(nm "a", (false, VBomb 7)); (nm "b", (false, VNum 2))]) (VObj [(nm "b", (false, VNum 3))])
  = Ok (VObj [(nm "a", (false, VBomb 7)); (nm "b", (false, VNum 3))]).
Proof. reflexivity. Qed.
Example prune_ex :
  prune (VArr [VNull; VArr [VNull]; VObj [(nm "h", (true, VNum 1))]; VNum 0; VObj [(nm "a", (false, VArr []))]])
  = Ok (VArr [VNum 0]) /\ clean (VArr [VNum 0]) = true.
Proof. split; reflexivity. Qed.
Example vis_ex :
  fields_impl [(nm "a", VisNormal); (nm "a", VisUnhide); (nm "b", VisNormal); (nm "a", VisHidden); (nm "b", VisHidden)] false
  = [nm "a"] /\
  has_field_impl (nm "b") [(nm "a", VisNormal); (nm "a", VisUnhide); (nm "b", VisNormal); (nm "a", VisHidden); (nm "b", VisHidden)] false
  = false.
Proof. split; reflexivity. Qed.
Example equals_ex :
  equals_core (VObj [(nm "a", (false, VArr [VNum 1]))]) (VObj [(nm "a", (false, VArr [VNum 1]))]) = Ok true /\
  equals_core (VObj [(nm "a", (false, VArr [VNum 1]))]) (VObj [(nm "a", (false, VArr [VNum 2]))]) = Ok false.
Proof. split; reflexivity. Qed.
