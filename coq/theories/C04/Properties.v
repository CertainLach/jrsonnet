(** C04 — property theorems on the depth-counter kernel (stack.rs) and the array index sites. *)
From Coq Require Import List Arith Lia.
From JrV Require Import Gen.GenStack.
From JrV Require Import C04.Model C04.Proofs C08.Model C08.Proofs.
Import ListNotations.
Local Open Scope nat_scope.

(** after any frame — returned, failed, or refused by the limit — counter and limit are restored *)
Theorem C04_depth_balanced :
  forall f s o s', run f s = (o, s') -> cur s' = cur s /\ C04.Model.max s' = C04.Model.max s.
Proof. exact run_balanced. Qed.
Print Assumptions C04_depth_balanced.

(** hence after any history of evaluations the same thread starts from the same state *)
Theorem C04_history_balanced :
  forall fs s os s', run_all fs s = (os, s') -> cur s' = cur s /\ C04.Model.max s' = C04.Model.max s.
Proof.
  induction fs as [|f t IH]; intros s os s' H.
  - injection H as <- <-. auto.
  - cbn [run_all] in H. destruct (run f s) as [o s1] eqn:Hr.
    destruct (run_all t s1) as [os1 s2] eqn:Ha. injection H as <- <-.
    destruct (run_balanced f _ _ _ Hr) as [C M]. destruct (IH _ _ _ Ha) as [C' M'].
    split; congruence.
Qed.
Print Assumptions C04_history_balanced.

(** without [limit_stack_depth] overrides the counter never exceeds the limit *)
Theorem C04_depth_bounded :
  forall f s o s', has_limit f = false -> cur s <= C04.Model.max s -> peak s <= C04.Model.max s ->
                   run f s = (o, s') -> peak s' <= C04.Model.max s.
Proof. exact (fun f s o s' Hl _ => run_bounded f s o s' Hl). Qed.
Print Assumptions C04_depth_bounded.

(** recursion below the limit is never refused ... *)
Theorem C04_no_spurious_overflow :
  forall f s o s', has_limit f = false -> cur s + depth f <= C04.Model.max s ->
                   run f s = (o, s') -> o <> StackOverflow.
Proof. exact run_fits. Qed.
Print Assumptions C04_no_spurious_overflow.

(** ... and runaway recursion is refused exactly at the limit *)
Theorem C04_runaway_stopped_at_limit :
  forall k s, cur s <= C04.Model.max s ->
    (fst (run (chain k) s) = StackOverflow <-> C04.Model.max s - cur s <= k).
Proof.
  intros k s Hc. split; [|intros H; apply chain_overflow; assumption].
  intros H. destruct (Nat.le_gt_cases (max s - cur s) k) as [|Hgt]; [assumption|].
  exfalso. destruct (run (chain k) s) as [o s'] eqn:Hr. cbn [fst] in H. subst o.
  apply (run_fits (chain k) s StackOverflow s'); [apply chain_no_limit| |exact Hr|reflexivity].
  rewrite chain_depth. lia.
Qed.
Print Assumptions C04_runaway_stopped_at_limit.

(** the array index arithmetic never panics on a well-formed view ([None] models a panic) *)
Theorem C04_site_array_views_safe :
  forall v i, wf v -> get_impl v i <> None /\ len_impl v <> None.
Proof.
  intros v i H. rewrite (get_refines v i H), (len_refines v H). split; discriminate.
Qed.
Print Assumptions C04_site_array_views_safe.

(** non-vacuity *)
Example C04_depth_example :
  run_all [Call [Call [] true; Call [] false] false; chain 5; Limit 1 [chain 3]] (mkSt 0 3 0)
  = ([Failed; StackOverflow; StackOverflow], mkSt 0 3 3).
Proof. reflexivity. Qed.

(** the counter model IS the source: the four state transformers of stack.rs, translated from /repo's
    working tree on every run (Gen/GenStack.v), are the model's [enter], [leave] and the two halves of a
    [Limit] frame; a change of one that is not extensionally the same function breaks this theorem. *)
Theorem C04_model_is_translated_source :
  (forall s, gen_check_depth (cur s) (C04.Model.max s)
             = option_map (fun s' => (cur s', C04.Model.max s')) (enter s)) /\
  (forall s, gen_guard_drop (cur s) (C04.Model.max s) = (cur (leave s), C04.Model.max (leave s))) /\
  (forall n s, gen_limit n (cur s) (C04.Model.max s) = ((cur s, cur s + n), C04.Model.max s)) /\
  (forall old c m, gen_limit_drop old c m = (c, old)).
Proof.
  repeat split.
  - intros s. unfold gen_check_depth, enter. destruct (Nat.ltb (cur s) (max s)); simpl; [|reflexivity].
    rewrite Nat.add_1_r. reflexivity.
Qed.
Print Assumptions C04_model_is_translated_source.
