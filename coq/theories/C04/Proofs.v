(** C04 proofs: for each of [balanced_at], [bounded_at], [fits_at] a [go_*] lemma for the body
    loop and a [run_*] theorem by induction over nested frames. *)
From Coq Require Import List Arith Bool Lia.
From JrV Require Import C04.Model.
Import ListNotations.

Section FrameInd.
  Variable P : frame -> Prop.
  Hypothesis HCall : forall body fails, Forall P body -> P (Call body fails).
  Hypothesis HLimit : forall n body, Forall P body -> P (Limit n body).
  Fixpoint frame_ind' (f : frame) : P f :=
    let all := fix all (l : list frame) : Forall P l :=
                 match l with
                 | [] => Forall_nil P
                 | x :: t => Forall_cons x (frame_ind' x) (all t)
                 end in
    match f with
    | Call body fails => HCall body fails (all body)
    | Limit n body => HLimit n body (all body)
    end.
End FrameInd.

(** the local fix of [run], as a function of its own *)
Fixpoint go (fs : list frame) (s : st) : outcome * st :=
  match fs with
  | [] => (Done, s)
  | x :: t => match run x s with
              | (Done, s') => go t s'
              | r => r
              end
  end.

Lemma run_call body fails s :
  run (Call body fails) s =
  match enter s with
  | None => (StackOverflow, s)
  | Some s1 => match go body s1 with
               | (Done, s2) => (if fails then Failed else Done, leave s2)
               | (o, s2) => (o, leave s2)
               end
  end.
Proof. reflexivity. Qed.

Lemma run_limit n body s :
  run (Limit n body) s =
  match go body (mkSt (cur s) (cur s + n) (peak s)) with
  | (o, s2) => (o, mkSt (cur s2) (max s) (peak s2))
  end.
Proof. reflexivity. Qed.

(** a call is refused at the limit, or runs its body one level deeper and drops its guard *)
Lemma run_call_inv body fails s o s' :
  run (Call body fails) s = (o, s') ->
  (max s <= cur s /\ s' = s) \/
  (cur s < max s /\ exists ob sb,
     go body (mkSt (S (cur s)) (max s) (Nat.max (peak s) (S (cur s)))) = (ob, sb) /\
     s' = leave sb /\ (ob <> StackOverflow -> o <> StackOverflow)).
Proof.
  rewrite run_call. unfold enter. destruct (Nat.ltb_spec (cur s) (max s)) as [Hlt|Hge]; intros H.
  - right. split; [exact Hlt|]. destruct (go body _) as [ob sb]. exists ob, sb.
    split; [reflexivity|].
    destruct ob; injection H as <- <-; (split; [reflexivity|]); auto.
    destruct fails; discriminate.
  - left. injection H as <- <-. auto.
Qed.

Definition balanced_at (f : frame) : Prop :=
  forall s o s', run f s = (o, s') -> cur s' = cur s /\ max s' = max s.

Lemma go_balanced body :
  Forall balanced_at body -> forall s o s', go body s = (o, s') -> cur s' = cur s /\ max s' = max s.
Proof.
  induction 1 as [|x t Hx _ IH]; intros s o s' H.
  - cbn in H. injection H as <- <-. auto.
  - cbn [go] in H. destruct (run x s) as [ox sx] eqn:Hr. destruct (Hx _ _ _ Hr) as [C M].
    destruct ox; try (injection H as <- <-; auto).
    destruct (IH _ _ _ H) as [C' M']. split; congruence.
Qed.

Theorem run_balanced f : balanced_at f.
Proof.
  induction f as [body fails IH|n body IH] using frame_ind'; intros s o s' H.
  - destruct (run_call_inv _ _ _ _ _ H) as [(_ & ->)|(Hlt & ob & sb & Hg & -> & _)]; [auto|].
    destruct (go_balanced body IH _ _ _ Hg) as [C M]. cbn [cur max leave] in *.
    split; [lia|exact M].
  - rewrite run_limit in H. destruct (go body _) as [ob sb] eqn:Hg.
    destruct (go_balanced body IH _ _ _ Hg) as [C M]. cbn [cur max] in C, M.
    injection H as <- <-. cbn [cur max]. auto.
Qed.

(** without limit overrides the counter never exceeds the limit *)
Definition bounded_at (f : frame) : Prop :=
  forall s o s', has_limit f = false -> peak s <= max s -> run f s = (o, s') -> peak s' <= max s.

Lemma go_bounded body :
  Forall bounded_at body -> existsb has_limit body = false ->
  forall s o s', peak s <= max s -> go body s = (o, s') -> peak s' <= max s.
Proof.
  induction 1 as [|x t Hx _ IH]; intros Hl s o s' Hp H.
  - cbn in H. injection H as <- <-. exact Hp.
  - cbn [existsb] in Hl. apply orb_false_iff in Hl. destruct Hl as [Hlx Hlt].
    cbn [go] in H. destruct (run x s) as [ox sx] eqn:Hr.
    pose proof (Hx _ _ _ Hlx Hp Hr) as Hpx. destruct (run_balanced x _ _ _ Hr) as [_ M].
    destruct ox; try (injection H as <- <-; exact Hpx).
    rewrite <- M. apply (IH Hlt sx o s'); [rewrite M; exact Hpx|exact H].
Qed.

Theorem run_bounded f : bounded_at f.
Proof.
  induction f as [body fails IH|n body IH] using frame_ind'; intros s o s' Hl Hp H.
  - cbn [has_limit] in Hl.
    destruct (run_call_inv _ _ _ _ _ H) as [(_ & ->)|(Hlt & ob & sb & Hg & -> & _)]; [exact Hp|].
    refine (go_bounded body IH Hl _ ob sb _ Hg). cbn [max peak]. lia.
  - discriminate.
Qed.

(** a history whose call nesting fits below the limit never overflows *)
Definition fits_at (f : frame) : Prop :=
  forall s o s', has_limit f = false -> cur s + depth f <= max s -> run f s = (o, s') -> o <> StackOverflow.

Lemma fold_max_le (body : list frame) x :
  In x body -> depth x <= fold_right (fun y acc => Nat.max (depth y) acc) 0 body.
Proof.
  induction body as [|y t IH]; intros H; [contradiction|]. cbn [fold_right].
  destruct H as [->|H]; [lia|specialize (IH H); lia].
Qed.

Lemma go_fits body :
  Forall fits_at body -> existsb has_limit body = false ->
  forall s o s', cur s + fold_right (fun y acc => Nat.max (depth y) acc) 0 body <= max s ->
                 go body s = (o, s') -> o <> StackOverflow.
Proof.
  induction 1 as [|x t Hx _ IH]; intros Hl s o s' Hd H.
  - cbn in H. injection H as <- <-. discriminate.
  - cbn [existsb] in Hl. apply orb_false_iff in Hl. destruct Hl as [Hlx Hlt].
    cbn [fold_right] in Hd. cbn [go] in H. destruct (run x s) as [ox sx] eqn:Hr.
    assert (Hox : ox <> StackOverflow) by (apply (Hx s ox sx Hlx); [lia|exact Hr]).
    destruct (run_balanced x _ _ _ Hr) as [C M].
    destruct ox; try (injection H as <- <-; assumption).
    apply (IH Hlt sx o s'); [lia|exact H].
Qed.

Theorem run_fits f : fits_at f.
Proof.
  induction f as [body fails IH|n body IH] using frame_ind'; intros s o s' Hl Hd H.
  - cbn [has_limit] in Hl. cbn [depth] in Hd.
    destruct (run_call_inv _ _ _ _ _ H) as [(Hge & _)|(Hlt & ob & sb & Hg & _ & Ho)]; [lia|].
    apply Ho. refine (go_fits body IH Hl _ ob sb _ Hg). cbn [cur max]. lia.
  - discriminate.
Qed.

Lemma chain_overflow k : forall s,
  max s - cur s <= k -> fst (run (chain k) s) = StackOverflow.
Proof.
  induction k as [|k IH]; intros s Hk; cbn [chain]; rewrite run_call; unfold enter.
  - destruct (Nat.ltb_spec (cur s) (max s)); [lia|reflexivity].
  - destruct (Nat.ltb_spec (cur s) (max s)) as [Hlt|]; [|reflexivity].
    cbn [go].
    specialize (IH (mkSt (S (cur s)) (max s) (Nat.max (peak s) (S (cur s))))). cbn [cur max] in IH.
    destruct (run (chain k) _) as [o s2].
    cbn [fst] in IH. rewrite IH by lia. reflexivity.
Qed.

Lemma chain_depth k : depth (chain k) = S k.
Proof. induction k as [|k IH]; cbn [chain depth fold_right]; [reflexivity|rewrite IH; lia]. Qed.
Lemma chain_no_limit k : has_limit (chain k) = false.
Proof. induction k as [|k IH]; cbn [chain has_limit existsb]; [reflexivity|rewrite IH; reflexivity]. Qed.

