(** C12 — source tie: every function translated from format.rs equals the hand model. *)
From Coq Require Import List NArith.
From JrV Require Import Gen.GenFormat Gen.GenFormatParse C12.Model C12.Proofs.
Import ListNotations.
Open Scope N_scope.

Lemma src_key_scan : forall s acc, gen_key_scan s acc = key_scan s acc.
Proof.
  induction s as [|c t IH]; intros acc; [reflexivity|].
  cbn [gen_key_scan key_scan]. unfold ch_rparen. destruct (c =? 41); [reflexivity | apply IH].
Qed.

Lemma src_mapping_key : forall s, gen_mapping_key s = impl_mapping_key s.
Proof.
  intros [|c t]; [reflexivity|]. unfold gen_mapping_key, impl_mapping_key, ch_lparen.
  destruct (c =? 40); [apply src_key_scan | reflexivity].
Qed.

Lemma src_cflags_loop : forall s f, gen_cflags_loop s f = impl_cflags_loop s f.
Proof.
  induction s as [|c t IH]; intros f; [reflexivity|].
  cbn [gen_cflags_loop impl_cflags_loop]. unfold flag_table. cbn [assoc].
  repeat (match goal with |- context [N.eqb c ?k] => destruct (N.eqb c k) end; try exact (IH _)).
  all: reflexivity.
Qed.

Lemma src_cflags : forall s, gen_cflags s = impl_cflags s.
Proof. intros [|c t]; [reflexivity|]. unfold gen_cflags, impl_cflags. apply src_cflags_loop. Qed.

(** on an exhausted suffix the translated loop panics ([EPanic]) where the model answers [ETrunc]:
    it is entered non-empty and tests for the end after every digit *)
Lemma src_width_loop : forall s out, s <> [] -> gen_width_loop s out = impl_width_loop s out.
Proof.
  induction s as [|c t IH]; intros out H; [congruence|].
  cbn [gen_width_loop impl_width_loop]. destruct (digit_of c) as [d|]; [|reflexivity].
  unfold bind, chk16e, chk16. cbv beta.
  destruct (out * 10 <=? u16_max); cbv beta iota; [|reflexivity].
  destruct (out * 10 + d <=? u16_max); cbv beta iota; [|reflexivity].
  destruct t as [|c' t']; [reflexivity|]. apply IH. discriminate.
Qed.

Lemma src_field_width : forall s, gen_field_width s = impl_field_width s.
Proof.
  intros [|c t]; [reflexivity|]. unfold gen_field_width, impl_field_width, ch_star.
  destruct (c =? 42); [reflexivity|]. rewrite src_width_loop by discriminate. reflexivity.
Qed.

Lemma src_precision : forall s, gen_precision s = impl_precision s.
Proof.
  intros [|c t]; [reflexivity|]. unfold gen_precision, impl_precision, ch_dot.
  destruct (c =? 46); [|reflexivity]. rewrite src_field_width. reflexivity.
Qed.

Lemma src_lenmod : forall s, gen_lenmod s = impl_lenmod s.
Proof.
  intros [|c t]; [reflexivity|]. unfold gen_lenmod, gen_lenmod_1, impl_lenmod.
  rewrite lenmod_table_ok. reflexivity.
Qed.

Lemma src_convtype : forall s, gen_convtype s = impl_convtype s.
Proof.
  intros [|c t]; [reflexivity|]. unfold gen_convtype, impl_convtype. rewrite conv_table_ok. unfold spec_conv.
  repeat match goal with |- context [if ?b then _ else _] => destruct b; [reflexivity|] end.
  reflexivity.
Qed.

Lemma src_parse_code : forall s, gen_parse_code s = impl_parse_code s.
Proof.
  intros [|c t]; [reflexivity|]. unfold gen_parse_code, impl_parse_code.
  apply bind_ext; [apply src_mapping_key | intros r1].
  apply bind_ext; [apply src_cflags | intros r2].
  apply bind_ext; [apply src_field_width | intros r3].
  apply bind_ext; [apply src_precision | intros r4].
  apply bind_ext; [apply src_lenmod | intros r5].
  apply bind_ext; [apply src_convtype | reflexivity].
Qed.

Lemma src_lit_span : forall s, gen_lit_span s = lit_span s.
Proof.
  induction s as [|c t IH]; [reflexivity|]. cbn [gen_lit_span lit_span]. unfold ch_pct. rewrite IH. reflexivity.
Qed.

Lemma src_parse_codes_f : forall fuel s, gen_parse_codes_f fuel s = parse_codes_f impl_parse_code fuel s.
Proof.
  induction fuel as [|f IH]; intros s; [reflexivity|].
  cbn [gen_parse_codes_f parse_codes_f]. rewrite src_lit_span. cbv zeta.
  destruct (snd (lit_span s)) as [|p after]; [reflexivity|].
  rewrite src_parse_code. destruct (impl_parse_code after) as [[c rest]|e]; [|reflexivity].
  cbn [bind fst snd]. rewrite IH. destruct (parse_codes_f impl_parse_code f rest); reflexivity.
Qed.

Lemma src_parse_codes_eq : forall s, gen_parse_codes s = impl_parse_codes s.
Proof. intros s. apply src_parse_codes_f. Qed.

(** the translated code matches on the slice where the model calls take_val *)
Lemma src_step_arr : forall so fc c vals, gen_step_arr so fc c vals = step_arr so fc c vals.
Proof.
  intros. unfold gen_step_arr, step_arr.
  apply bind_ext; [destruct (c_width c); [destruct vals|]; reflexivity | intros wv].
  apply bind_ext; [destruct (c_prec c) as [[|n]|]; [destruct (snd wv)| |]; reflexivity | intros pv].
  apply bind_ext; [|reflexivity].
  destruct (c_type c); try reflexivity; destruct (snd pv); reflexivity.
Qed.

Lemma src_run_arr : forall so fc es vals, gen_run_arr so fc es vals = run_arr so fc es vals.
Proof.
  induction es as [|[s|c] t IH]; intros vals; cbn [gen_run_arr run_arr].
  - destruct vals; reflexivity.
  - rewrite IH. reflexivity.
  - apply bind_ext; [apply src_step_arr | intros ov]. rewrite IH. reflexivity.
Qed.

Lemma src_step_obj : forall fc c fs, gen_step_obj fc c fs = step_obj fc c fs.
Proof.
  intros. unfold gen_step_obj, step_obj, lookup.
  do 2 (apply bind_ext; [reflexivity | intros ?]). apply bind_ext; [|reflexivity].
  destruct (c_type c); try reflexivity; destruct (c_mkey c); reflexivity.
Qed.

Lemma src_run_obj : forall fc es fs, gen_run_obj fc es fs = run_obj fc es fs.
Proof.
  induction es as [|[s|c] t IH]; intros fs; cbn [gen_run_obj run_obj].
  - reflexivity.
  - rewrite IH. reflexivity.
  - apply bind_ext; [apply src_step_obj | intros o]. rewrite IH. reflexivity.
Qed.

Lemma src_format_arr : forall so fc fmt vals,
  gen_format_arr so fc fmt vals = bind (impl_parse_codes fmt) (fun es => run_arr so fc es vals).
Proof.
  intros. apply bind_ext; [apply src_parse_codes_eq | intros es; apply src_run_arr].
Qed.

Lemma src_format_obj : forall fc fmt fs,
  gen_format_obj fc fmt fs = bind (impl_parse_codes fmt) (fun es => run_obj fc es fs).
Proof.
  intros. apply bind_ext; [apply src_parse_codes_eq | intros es; apply src_run_obj].
Qed.

