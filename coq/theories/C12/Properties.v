(** C12 — the property theorems; helper lemmas are in Proofs.v, the statements again as
    [Check]s in Pins.v. *)
From Coq Require Import List ZArith NArith Bool Lia.
From JrV Require Import Gen.GenFormat C12.Model C12.Proofs.
Import ListNotations.

(** The tables read from the source are the documented ones: 15 conversion letters, 5 flags,
    3 length modifiers (any N, not only bytes). *)
Theorem C12_conv_table_ok : forall c, assoc c conv_table = spec_conv c.
Proof. exact conv_table_ok. Qed.
Print Assumptions C12_conv_table_ok.

Theorem C12_flag_table_ok : forall c, assoc c flag_table = spec_flag c.
Proof. exact flag_table_ok. Qed.
Print Assumptions C12_flag_table_ok.

Theorem C12_lenmod_table_ok : forall c, memN c lenmod_chars = is_lenmod c.
Proof. exact lenmod_table_ok. Qed.
Print Assumptions C12_lenmod_table_ok.

(** For EVERY string, every truncation point included, the transliterated parser returns what
    the grammar returns: the same elements, the same error (truncated / unrecognised letter /
    width above 65535). *)
Theorem C12_parse_refines : forall s, impl_parse_codes s = spec_parse_codes s.
Proof. exact parse_refines. Qed.
Print Assumptions C12_parse_refines.

(** 65535 is accepted, 65536 is the "too large" error (not a panic), `%lld` is rejected. *)
Theorem C12_width_limit_examples :
  impl_parse_codes [37; 54; 53; 53; 51; 54; 100]%N = Err ETooLarge /\
  impl_parse_codes [37; 54; 53; 53; 51; 53; 100]%N =
    Ok [ECode {| c_mkey := []; c_flags := no_flags; c_width := WFixed 65535; c_prec := None;
                 c_type := GDecimal; c_caps := false |}] /\
  impl_parse_codes [37; 108; 108; 100]%N = Err (EUnrec 108).
Proof. repeat split; vm_compute; reflexivity. Qed.
Print Assumptions C12_width_limit_examples.

(** Text without `%` is the output, in array and in object mode (any parser, any renderer). *)
Theorem C12_literal_copied : forall pc so fc s,
  ~ In ch_pct s ->
  std_format (parse_codes pc) so fc s (TArr []) = Ok s /\
  (forall fs, std_format (parse_codes pc) so fc s (TObj fs) = Ok s).
Proof.
  intros pc so fc s H. unfold std_format, parse_codes. cbn [parse_codes_f].
  rewrite (lit_span_nopct s H). cbn [fst snd bind].
  destruct s as [|c t]; cbn [lit_elem run_arr run_obj bind]; [split; reflexivity|].
  rewrite app_nil_r. split; reflexivity.
Qed.
Print Assumptions C12_literal_copied.

(** `%%` hands the value list on untouched. *)
Theorem C12_percent_consumes_nothing : forall star_of fc c w vals,
  c_type c = GPercent -> c_width c = WFixed w -> c_prec c <> Some WStar ->
  step_arr star_of fc c vals =
  bind (fc (VOpq []) c w (match c_prec c with Some (WFixed n) => Some n | _ => None end))
       (fun out => Ok (out, vals)).
Proof. exact percent_consumes_nothing. Qed.
Print Assumptions C12_percent_consumes_nothing.

(** One code takes exactly (star width) + (star precision) + (not %%) values from the FRONT;
    its text does not depend on the rest. *)
Theorem C12_values_consumed_ltr : forall star_of fc c vals out rest,
  step_arr star_of fc c vals = Ok (out, rest) ->
  exists used, vals = used ++ rest /\ length used = need_code c /\
               forall rest', step_arr star_of fc c (used ++ rest') = Ok (out, rest').
Proof. exact step_arr_consumes. Qed.
Print Assumptions C12_values_consumed_ltr.

(** A successful format used every value: fewer or more values are an error. *)
Theorem C12_value_count : forall star_of fc es vals,
  (forall out, run_arr star_of fc es vals = Ok out -> length vals = need es) /\
  (length vals <> need es -> exists e, run_arr star_of fc es vals = Err e).
Proof. intros. split; [intros out; apply values_consumed | apply wrong_count_is_error]. Qed.
Print Assumptions C12_value_count.

(** The digit vector of render_integer reads back to the number, digits in range (induction
    on the loop). *)
Theorem C12_int_roundtrip : forall radix z,
  (radix = 8 \/ radix = 10 \/ radix = 16)%Z -> (0 <= z < 2 ^ 63)%Z ->
  read_back radix (rev (impl_digits radix z)) = z /\
  Forall (fun d => (0 <= d < radix)%Z) (impl_digits radix z).
Proof. intros radix z Hr. apply digits_roundtrip. lia. Qed.
Print Assumptions C12_int_roundtrip.

(** %d %i %u %o %x %X: render_integer and its three callers produce std.jsonnet's render_int /
    render_hex text for every flag set, width and precision while |floor x| < 2^63 (beyond it
    `as i64` saturates: the known class). *)
Theorem C12_int_format_refines : forall v c w p,
  wf_value v -> is_int_conv (c_type c) = true -> known_int_class v c = false ->
  impl_format_tmp v c w p = spec_format_tmp v c w p.
Proof.
  intros v c w p Hwf Hc Hk. unfold impl_format_tmp, spec_format_tmp.
  assert (P : forall (b : bool), Z.of_N (if b then w else 0%N) = if b then Z.of_N w else 0%Z)
    by (intros []; reflexivity).
  assert (Q : Z.of_N (match p with Some q => q | None => default_int_precision end) =
              match p with Some q => Z.of_N q | None => 0%Z end) by (destruct p; reflexivity).
  destruct (c_type c); try discriminate Hc.
  all: destruct v as [n d sh|s|sh|fs sh]; [|reflexivity ..].
  all: destruct (int_class_bounds n d sh c Hwf Hk) as [Hf Hx].
  all: cbn [as_num bind fst snd]; f_equal.
  - rewrite render_decimal_refines, P, Q by exact Hf. reflexivity.
  - rewrite render_octal_refines, P, Q by exact Hf. reflexivity.
  - rewrite render_hex_refines, P, Q by exact Hx. reflexivity.
Qed.
Print Assumptions C12_int_format_refines.

Theorem C12_i64_saturation_refuted :
  impl_render_decimal false (2 ^ 63) 0 0 false false <> spec_render_int false (2 ^ 63) 0 0 false false 10 [].
Proof. exact render_saturation_refuted. Qed.
Print Assumptions C12_i64_saturation_refuted.

(** %c: the negative-number guard and the saturating `as u32` agree with std.char, for every value. *)
Theorem C12_char_format_refines : forall v c w p,
  wf_value v -> c_type c = GChar -> impl_format_tmp v c w p = spec_format_tmp v c w p.
Proof.
  intros v c w p Hwf Hc. unfold impl_format_tmp, spec_format_tmp. rewrite Hc.
  destruct v as [n d sh|s|sh|fs sh]; try reflexivity.
  destruct (le_m1 n d) eqn:L; [reflexivity|]. cbv zeta.
  rewrite (as_u32_floor_abs n d Hwf L). apply sat_u32_char.
Qed.
Print Assumptions C12_char_format_refines.

(** Field width: the specified padding makes the text exactly max(width, natural length) code
    points long, spaces on the side the `-` flag says ... *)
Theorem C12_width_exact : forall left w tmp,
  lenN (spec_pad left w tmp) = N.max w (lenN tmp) /\
  exists n, spec_pad left w tmp = if left then tmp ++ repeat ch_space n else repeat ch_space n ++ tmp.
Proof.
  intros left w tmp. split.
  - unfold spec_pad, pad_left, pad_right, lenN. destruct left; rewrite app_length, repeat_length; lia.
  - unfold spec_pad, pad_left, pad_right. destruct left; eexists; reflexivity.
Qed.
Print Assumptions C12_width_exact.

(** ... and the code's padding (code points, clamped to u16) is that padding for ALL text
    (fix 3912a6a); a parsed or `*` width is always <= 65535. *)
Theorem C12_pad_refines : forall left w tmp,
  (w <= u16_max)%N -> impl_pad left w tmp = spec_pad left w tmp.
Proof.
  intros left w tmp Hw. unfold impl_pad, spec_pad, pad_left, pad_right.
  assert (E : N.to_nat (w - (if (lenN tmp <=? u16_max)%N then lenN tmp else u16_max)) =
              Z.to_nat (Z.of_N w - Z.of_nat (length tmp))).
  { destruct (lenN tmp <=? u16_max)%N eqn:C; unfold lenN, u16_max in *.
    - lia.
    - apply N.leb_gt in C. lia. }
  rewrite E. reflexivity.
Qed.
Print Assumptions C12_pad_refines.

(** `%g`: the two unchecked u16 subtractions cannot underflow for any number and any precision
    (fix dc97934); with precision <= 308 the whole arm returns text. *)
Theorem C12_g_no_underflow : forall num den padding fpprec b s alt caps,
  (fpprec <= 308)%N -> exists o, impl_render_shorter num den padding fpprec b s alt caps = Ok o.
Proof.
  intros num den padding fpprec b s alt caps H. unfold impl_render_shorter. cbv zeta.
  destruct ((exp10 num den <? -4) || (exp10 num den >=? Z.of_N (N.max fpprec 1)))%Z eqn:C.
  - unfold sub16. replace (1 <=? N.max fpprec 1)%N with true by (symmetry; apply N.leb_le; lia).
    cbn [bind]. apply render_float_sci_ok. lia.
  - apply orb_false_iff in C. destruct C as [C1 C2]. apply Z.ltb_ge in C1.
    rewrite Z.geb_leb in C2. apply Z.leb_gt in C2.
    unfold sub16.
    replace (N.max 1 (Z.to_N (exp10 num den) + 1) <=? N.max fpprec 1)%N with true
      by (symmetry; apply N.leb_le; lia).
    cbn [bind]. apply render_float_ok. lia.
Qed.
Print Assumptions C12_g_no_underflow.

(** The float finding: from precision 309 on `10.0f64.powi(precision)` is +inf and the
    debug_assert of render_integer fires (the model's EPanic). *)
Theorem C12_float_pow_overflow_refuted :
  impl_render_float 1 1 0 309 false false false true = Err EPanic /\
  exists o, impl_render_float 1 1 0 308 false false false true = Ok o.
Proof. split; [vm_compute; reflexivity|]. apply render_float_ok. lia. Qed.
Print Assumptions C12_float_pow_overflow_refuted.

(** Object mode: `*` is an error, a code without a key is an error, a key that is not a
    field (and has no dotted path) is an error, a key that is a field formats that field. *)
Theorem C12_obj_mode_rules : forall fc c fs,
  (c_width c = WStar \/ c_prec c = Some WStar -> step_obj fc c fs = Err EStarObj) /\
  (forall w, c_width c = WFixed w -> c_prec c <> Some WStar -> c_type c <> GPercent ->
             c_mkey c = [] -> step_obj fc c fs = Err EKeysReq) /\
  (forall k, field_get k fs = None -> ~ In ch_dot k -> lookup fs k = Err ENoField) /\
  (forall w v, c_width c = WFixed w -> c_prec c <> Some WStar -> c_type c <> GPercent ->
               c_mkey c <> [] -> field_get (c_mkey c) fs = Some v ->
               step_obj fc c fs = fc v c w (match c_prec c with Some (WFixed n) => Some n | _ => None end)).
Proof.
  intros fc c fs. split; [|split; [|split]].
  - intros [H|H]; unfold step_obj; rewrite H; [reflexivity|]. destruct (c_width c); reflexivity.
  - intros w W P T K. rewrite (step_obj_fixed fc c fs w W P), (not_percent _ _ _ _ T), K. reflexivity.
  - intros k G D. unfold lookup. rewrite G, split_dot_nodot by exact D.
    cbn [rev app get_path]. rewrite G. reflexivity.
  - intros w v W P T K G. rewrite (step_obj_fixed fc c fs w W P), (not_percent _ _ _ _ T).
    destruct (c_mkey c) as [|k0 kt]; [congruence|]. unfold lookup. rewrite G. reflexivity.
Qed.
Print Assumptions C12_obj_mode_rules.

(** "%05.3d" parses to one code on both sides. *)
Example C12_parse_refines_nonvacuous :
  let s := [37; 48; 53; 46; 51; 100]%N in
  impl_parse_codes s = spec_parse_codes s /\
  spec_parse_codes s = Ok [ECode {| c_mkey := []; c_flags := set_flag FZero no_flags; c_width := WFixed 5;
                                    c_prec := Some (WFixed 3); c_type := GDecimal; c_caps := false |}].
Proof. cbv zeta. split; vm_compute; reflexivity. Qed.

(** "%*.*f" takes three values from the front and leaves the rest. *)
Example C12_values_consumed_nonvacuous :
  exists out, step_arr impl_u16_of impl_format_code
    {| c_mkey := []; c_flags := no_flags; c_width := WStar; c_prec := Some WStar; c_type := GFloat; c_caps := false |}
    [VNum 8 1 []; VNum 2 1 []; VNum 314159 100000 []; VStr [120%N]] = Ok (out, [VStr [120%N]]).
Proof. eexists. vm_compute. reflexivity. Qed.

(** "%#06x" % -255 is outside every known class; both sides give "-0x0ff". *)
Example C12_int_format_nonvacuous :
  let c := {| c_mkey := []; c_flags := set_flag FAlt (set_flag FZero no_flags); c_width := WFixed 6; c_prec := None;
              c_type := GHexadecimal; c_caps := false |} in
  let v := VNum (-255) 1 [] in
  wf_value v /\ known_int_class v c = false /\
  impl_format_tmp v c 6 None = Ok [45; 48; 120; 48; 102; 102]%N.
Proof. cbv zeta. split; [vm_compute; reflexivity|]. split; vm_compute; reflexivity. Qed.

Example C12_roundtrip_nonvacuous : impl_digits 16 255 = [15; 15]%Z /\ read_back 16 [15; 15]%Z = 255%Z.
Proof. split; vm_compute; reflexivity. Qed.

Example C12_obj_mode_nonvacuous :
  impl_std_format [37; 40; 97; 41; 100]%N (TObj [([97%N], VNum 7 1 [])]) = Ok [55%N] /\
  impl_std_format [37; 40; 98; 41; 100]%N (TObj [([97%N], VNum 7 1 [])]) = Err ENoField /\
  impl_std_format [37; 42; 100]%N (TObj [([97%N], VNum 7 1 [])]) = Err EStarObj.
Proof. repeat split; vm_compute; reflexivity. Qed.
