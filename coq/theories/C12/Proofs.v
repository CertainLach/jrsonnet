(** C12 — lemmas: the transliterated parser is the grammar; render_integer is std.jsonnet's
    render_int / render_hex below 2^63; value consumption of format_arr. *)
From Coq Require Import List ZArith NArith Lia Bool.
From JrV Require Import Gen.GenFormat C12.Model.
Import ListNotations.
Open Scope N_scope.

Lemma bind_ext : forall A B (r r' : res A) (f g : A -> res B),
  r = r' -> (forall a, f a = g a) -> bind r f = bind r' g.
Proof. intros A B r r' f g <- H. destruct r; [apply H | reflexivity]. Qed.

Lemma if_orb : forall A (a b : bool) (x y : A),
  (if a || b then x else y) = if a then x else if b then x else y.
Proof. intros A [] [] x y; reflexivity. Qed.

Lemma key_scan_span : forall s acc,
  key_scan s acc =
  match snd (span (fun x => negb (x =? ch_rparen)) s) with
  | [] => Err ETrunc
  | _ :: rest => Ok (rev acc ++ fst (span (fun x => negb (x =? ch_rparen)) s), rest)
  end.
Proof.
  induction s as [|c t IH]; intros acc; cbn [key_scan span].
  - reflexivity.
  - destruct (c =? ch_rparen) eqn:E; cbn [negb fst snd].
    + rewrite app_nil_r. reflexivity.
    + rewrite IH. cbn [rev]. destruct (snd (span _ t)); [reflexivity|].
      rewrite <- app_assoc. reflexivity.
Qed.

Lemma mapping_key_refines : forall s, impl_mapping_key s = spec_mapping_key s.
Proof.
  intros [|c t]; [reflexivity|]. unfold impl_mapping_key, spec_mapping_key.
  destruct (c =? ch_lparen); [|reflexivity]. rewrite key_scan_span. reflexivity.
Qed.

(** by conversion: the table read from try_parse_cflags has the order of [spec_flag]'s tests *)
Lemma flag_table_ok : forall c, assoc c flag_table = spec_flag c.
Proof. reflexivity. Qed.

Lemma is_flag_spec : forall c, is_flag c = match spec_flag c with Some _ => true | None => false end.
Proof.
  intros c. unfold is_flag, spec_flag.
  destruct (c =? 35); [reflexivity|]. destruct (c =? 48); [reflexivity|].
  destruct (c =? 45); [reflexivity|]. destruct (c =? 32); [reflexivity|]. destruct (c =? 43); reflexivity.
Qed.

Definition add_flag (f : cflags) (c : N) : cflags :=
  match spec_flag c with Some g => set_flag g f | None => f end.

Lemma cflags_loop_span : forall s f,
  impl_cflags_loop s f =
  match snd (span is_flag s) with
  | [] => Err ETrunc
  | _ => Ok (fold_left add_flag (fst (span is_flag s)) f, snd (span is_flag s))
  end.
Proof.
  induction s as [|c t IH]; intros f; cbn [impl_cflags_loop span]; [reflexivity|].
  rewrite flag_table_ok, is_flag_spec. unfold add_flag at 1.
  destruct (spec_flag c) eqn:E; cbn [fst snd].
  - rewrite IH. cbn [fold_left]. unfold add_flag at 1. rewrite E. reflexivity.
  - reflexivity.
Qed.

Lemma add_flag_proj : forall f c,
  add_flag f c =
  {| f_alt := f_alt f || (c =? 35); f_zero := f_zero f || (c =? 48); f_left := f_left f || (c =? 45);
     f_blank := f_blank f || (c =? 32); f_sign := f_sign f || (c =? 43) |}.
Proof.
  intros [a z l b s] c. unfold add_flag, spec_flag. cbn [f_alt f_zero f_left f_blank f_sign].
  destruct (N.eqb_spec c 35) as [->|_]; [cbn; rewrite orb_true_r, !orb_false_r; reflexivity|].
  destruct (N.eqb_spec c 48) as [->|_]; [cbn; rewrite orb_true_r, !orb_false_r; reflexivity|].
  destruct (N.eqb_spec c 45) as [->|_]; [cbn; rewrite orb_true_r, !orb_false_r; reflexivity|].
  destruct (N.eqb_spec c 32) as [->|_]; [cbn; rewrite orb_true_r, !orb_false_r; reflexivity|].
  destruct (N.eqb_spec c 43) as [->|_]; [cbn; rewrite orb_true_r, !orb_false_r; reflexivity|].
  rewrite !orb_false_r. reflexivity.
Qed.

Lemma add_flags_proj : forall fs f,
  fold_left add_flag fs f =
  {| f_alt := f_alt f || memN 35 fs; f_zero := f_zero f || memN 48 fs; f_left := f_left f || memN 45 fs;
     f_blank := f_blank f || memN 32 fs; f_sign := f_sign f || memN 43 fs |}.
Proof.
  induction fs as [|c t IH]; intros f; cbn [fold_left memN].
  - destruct f as [a z l b s]. cbn [f_alt f_zero f_left f_blank f_sign]. rewrite !orb_false_r. reflexivity.
  - rewrite IH, add_flag_proj. cbn [f_alt f_zero f_left f_blank f_sign].
    rewrite (N.eqb_sym 35 c), (N.eqb_sym 48 c), (N.eqb_sym 45 c), (N.eqb_sym 32 c), (N.eqb_sym 43 c), !orb_assoc.
    reflexivity.
Qed.

Lemma cflags_refines : forall s, impl_cflags s = spec_cflags s.
Proof.
  intros s. unfold impl_cflags, spec_cflags. rewrite cflags_loop_span, add_flags_proj. reflexivity.
Qed.

Lemma digit_of_spec : forall c, digit_of c = if is_digit c then Some (c - 48) else None.
Proof. reflexivity. Qed.

Definition dec_step (a d : N) : N := 10 * a + (d - 48).

Lemma fold_dec_ge : forall l a, a <= fold_left dec_step l a.
Proof.
  induction l as [|d t IH]; intros a; cbn [fold_left]; [lia|].
  specialize (IH (dec_step a d)). unfold dec_step in *. lia.
Qed.

(** `out.checked_mul(10).and_then(|o| o.checked_add(d))` checks the exact result *)
Lemma checked_mul_add : forall A out d (k : N -> res A),
  match chk16 (out * 10) with
  | Err e => Err e
  | Ok o1 => match chk16 (o1 + d) with Err e => Err e | Ok o2 => k o2 end
  end = if out * 10 + d <=? u16_max then k (out * 10 + d) else Err ETooLarge.
Proof.
  intros A out d k. unfold chk16. destruct (N.leb_spec (out * 10) u16_max) as [H|H].
  - destruct (out * 10 + d <=? u16_max); reflexivity.
  - rewrite (proj2 (N.leb_gt _ _)) by lia. reflexivity.
Qed.

(** "too large" exactly when the value of the digit run exceeds 65535; an overflow is final
    because the value only grows *)
Lemma width_loop_span : forall s out, out <= u16_max ->
  impl_width_loop s out =
  if u16_max <? fold_left dec_step (fst (span is_digit s)) out then Err ETooLarge
  else match snd (span is_digit s) with
       | [] => Err ETrunc
       | _ => Ok (fold_left dec_step (fst (span is_digit s)) out, snd (span is_digit s))
       end.
Proof.
  induction s as [|c t IH]; intros out Ho; cbn [impl_width_loop span].
  - cbn [fst snd fold_left]. rewrite (proj2 (N.ltb_ge _ _) Ho). reflexivity.
  - rewrite digit_of_spec. destruct (is_digit c); cbn [fst snd fold_left].
    + rewrite checked_mul_add, (N.mul_comm out 10). fold (dec_step out c).
      destruct (N.leb_spec (dec_step out c) u16_max) as [Hs|Hs]; [apply IH, Hs|].
      pose proof (fold_dec_ge (fst (span is_digit t)) (dec_step out c)) as G.
      rewrite (proj2 (N.ltb_lt _ _)) by lia. reflexivity.
    + rewrite (proj2 (N.ltb_ge _ _) Ho). reflexivity.
Qed.

Lemma field_width_refines : forall s, impl_field_width s = spec_field_width s.
Proof.
  intros [|c t]; [reflexivity|]. unfold impl_field_width, spec_field_width.
  destruct (c =? ch_star); [reflexivity|].
  rewrite width_loop_span by (unfold u16_max; lia).
  unfold decimal. fold dec_step.
  destruct (u16_max <? fold_left dec_step (fst (span is_digit (c :: t))) 0); [reflexivity|].
  destruct (snd (span is_digit (c :: t))); reflexivity.
Qed.

Lemma precision_refines : forall s, impl_precision s = spec_precision s.
Proof.
  intros [|c t]; [reflexivity|]. unfold impl_precision, spec_precision.
  destruct (c =? ch_dot); [|reflexivity]. rewrite field_width_refines. reflexivity.
Qed.

(** the table lists d, i and u separately *)
Lemma conv_table_ok : forall c, assoc c conv_table = spec_conv c.
Proof. intros c. unfold spec_conv. rewrite !if_orb. reflexivity. Qed.

Lemma lenmod_table_ok : forall c, memN c lenmod_chars = is_lenmod c.
Proof.
  intros c. unfold is_lenmod, lenmod_chars. cbn [memN]. rewrite orb_false_r, orb_assoc. reflexivity.
Qed.

Lemma lenmod_refines : forall s, impl_lenmod s = spec_lenmod s.
Proof. intros [|c t]; [reflexivity|]. unfold impl_lenmod, spec_lenmod. rewrite lenmod_table_ok. reflexivity. Qed.

Lemma convtype_refines : forall s, impl_convtype s = spec_convtype s.
Proof. intros [|c t]; [reflexivity|]. unfold impl_convtype, spec_convtype. rewrite conv_table_ok. reflexivity. Qed.

Lemma parse_code_refines : forall s, impl_parse_code s = spec_parse_code s.
Proof.
  intros s. unfold impl_parse_code, spec_parse_code.
  apply bind_ext; [apply mapping_key_refines | intros kr].
  apply bind_ext; [apply cflags_refines | intros fr].
  apply bind_ext; [apply field_width_refines | intros wr].
  apply bind_ext; [apply precision_refines | intros pr].
  apply bind_ext; [apply lenmod_refines | intros s5].
  apply bind_ext; [apply convtype_refines | reflexivity].
Qed.

Lemma parse_codes_f_ext : forall (f g : list N -> res (code * list N)),
  (forall s, f s = g s) -> forall fuel s, parse_codes_f f fuel s = parse_codes_f g fuel s.
Proof.
  intros f g H. induction fuel as [|n IH]; intros s; [reflexivity|].
  cbn [parse_codes_f]. destruct (snd (lit_span s)) as [|p after]; [reflexivity|].
  rewrite H. destruct (g after) as [[cd rest]|e]; [|reflexivity]. rewrite IH. reflexivity.
Qed.

Lemma parse_refines : forall s, impl_parse_codes s = spec_parse_codes s.
Proof. intros s. apply parse_codes_f_ext. exact parse_code_refines. Qed.

Open Scope Z_scope.

(** one division by the radix pays for one unit of fuel, in both digit loops *)
Lemma div_fuel : forall r v f, 2 <= r -> 0 <= v < 2 ^ Z.of_nat (S f) -> 0 <= v / r < 2 ^ Z.of_nat f.
Proof.
  intros r v f Hr Hv. rewrite Nat2Z.inj_succ, Z.pow_succ_r in Hv by lia.
  split; [apply Z.div_pos; lia|]. apply Z.div_lt_upper_bound; [lia|].
  apply Z.lt_le_trans with (2 * 2 ^ Z.of_nat f); [lia|]. apply Z.mul_le_mono_nonneg_r; lia.
Qed.

Lemma digits_loop_value : forall fuel radix v, 2 <= radix -> 0 <= v < 2 ^ Z.of_nat fuel ->
  read_back radix (rev (digits_loop fuel radix v)) = v.
Proof.
  induction fuel as [|f IH]; intros radix v Hr Hv.
  - cbn in *. lia.
  - cbn [digits_loop]. destruct (Z.eqb_spec v 0) as [->|_]; [reflexivity|].
    cbn [rev]. unfold read_back in *. rewrite fold_left_app. cbn [fold_left].
    rewrite IH by (try apply div_fuel; assumption).
    rewrite Z.mul_comm. symmetry. apply Z.div_mod. lia.
Qed.

Lemma digits_loop_range : forall fuel radix v, 2 <= radix ->
  Forall (fun d => 0 <= d < radix) (digits_loop fuel radix v).
Proof.
  induction fuel as [|f IH]; intros radix v Hr; cbn [digits_loop]; [constructor|].
  destruct (v =? 0); constructor.
  - apply Z.mod_pos_bound. lia.
  - apply IH, Hr.
Qed.

Lemma impl_digits_range : forall radix z, 2 <= radix ->
  Forall (fun d => 0 <= d < radix) (impl_digits radix z).
Proof.
  intros radix z Hr. unfold impl_digits. destruct (z =? 0).
  - constructor; [lia|constructor].
  - apply digits_loop_range, Hr.
Qed.

(** any radix: the 64 turns of the loop suffice below 2^63 *)
Lemma digits_roundtrip : forall radix z, 2 <= radix -> 0 <= z < 2 ^ 63 ->
  read_back radix (rev (impl_digits radix z)) = z /\
  Forall (fun d => 0 <= d < radix) (impl_digits radix z).
Proof.
  intros radix z Hr Hz. split; [|apply impl_digits_range, Hr].
  unfold impl_digits. destruct (Z.eqb_spec z 0) as [->|_]; [reflexivity|].
  apply digits_loop_value; [exact Hr|]. change (Z.of_nat 64) with 64. lia.
Qed.

(** the digit vector, reversed, is std.jsonnet's aux(n) *)
Lemma digits_loop_spec : forall f1 f2 radix v, 2 <= radix ->
  0 <= v < 2 ^ Z.of_nat f1 -> v < 2 ^ Z.of_nat f2 ->
  rev (digits_loop f1 radix v) = spec_digits_f f2 radix v.
Proof.
  induction f1 as [|f1 IH]; intros f2 radix v Hr H1 H2.
  - cbn in H1. assert (v = 0) by lia. subst. destruct f2; reflexivity.
  - destruct f2 as [|f2].
    + cbn in H2. assert (v = 0) by lia. subst. reflexivity.
    + cbn [digits_loop spec_digits_f]. destruct (Z.eqb_spec v 0) as [->|E]; [reflexivity|].
      replace (v <=? 0) with false by (symmetry; apply Z.leb_gt; lia).
      cbn [rev]. rewrite (IH f2); [reflexivity|exact Hr| |]; apply div_fuel; (exact Hr || lia).
Qed.

Lemma log2_fuel : forall n, 0 < n -> n < 2 ^ Z.of_nat (S (Z.to_nat (Z.log2 n))).
Proof.
  intros n Hn. rewrite Nat2Z.inj_succ, Z2Nat.id by apply Z.log2_nonneg.
  apply Z.log2_spec. exact Hn.
Qed.

Lemma digit_char_spec : forall caps d, 0 <= d < 16 -> digit_char caps d = spec_digit_char caps d.
Proof.
  intros caps d H.
  assert (C : d = 0 \/ d = 1 \/ d = 2 \/ d = 3 \/ d = 4 \/ d = 5 \/ d = 6 \/ d = 7 \/ d = 8 \/ d = 9 \/
              d = 10 \/ d = 11 \/ d = 12 \/ d = 13 \/ d = 14 \/ d = 15) by lia.
  repeat (destruct C as [C|C]; [subst; destruct caps; reflexivity|]). subst; destruct caps; reflexivity.
Qed.

(** in every radix the alphabet of render_hex reaches *)
Lemma numeral_refines : forall caps radix iv, 2 <= radix <= 16 -> 0 <= iv < 2 ^ 63 ->
  map (digit_char caps) (rev (impl_digits radix iv)) = spec_numeral caps radix iv.
Proof.
  intros caps radix iv Hr Hz. transitivity (map (spec_digit_char caps) (rev (impl_digits radix iv))).
  - apply map_ext_Forall, Forall_rev.
    apply Forall_impl with (P := fun d => 0 <= d < radix); [|apply impl_digits_range; lia].
    intros d Hd. apply digit_char_spec. lia.
  - unfold impl_digits, spec_numeral, spec_digits.
    destruct (Z.eqb_spec iv 0) as [->|E]; [reflexivity|]. f_equal.
    apply digits_loop_spec; [lia|change (Z.of_nat 64) with 64; lia|apply log2_fuel; lia].
Qed.

Lemma sat_small : forall iv, 0 <= iv < 2 ^ 63 -> sat_i64 iv = iv.
Proof. intros iv [_ H]. apply Z.min_l, Z.lt_le_pred, H. Qed.

Lemma to_nat_max0 : forall x, Z.to_nat (Z.max 0 x) = Z.to_nat x.
Proof. intros [|p|p]; reflexivity. Qed.

Lemma max0_sub : forall x y, 0 <= y -> Z.max 0 (Z.max 0 x - y) = Z.max 0 (x - y).
Proof. intros. lia. Qed.

Lemma max_max0 : forall x p, 0 <= p -> Z.max (Z.max 0 x) p = Z.max x p.
Proof. intros. lia. Qed.

(** a saturating subtraction is a subtraction cut off at 0, and the inner cuts are absorbed *)
Lemma zero_fill : forall padding precision (s : bool) (a b : nat),
  N.to_nat (N.max (padding - b2n s - N.of_nat a) precision - N.of_nat b) =
  Z.to_nat (Z.max (Z.of_N padding - (if s then 1 else 0) - Z.of_nat a) (Z.of_N precision) - Z.of_nat b).
Proof.
  intros. rewrite <- (N2Z.id (N.max _ _ - _)), Z_N_nat.
  rewrite N2Z.inj_sub_max, to_nat_max0, N2Z.inj_max, !N2Z.inj_sub_max, !nat_N_Z.
  rewrite max0_sub by apply Nat2Z.is_nonneg. rewrite max_max0 by apply N2Z.is_nonneg.
  destruct s; reflexivity.
Qed.

Lemma repeat_swap : forall (c : N) a b l, repeat c a ++ repeat c b ++ l = repeat c b ++ repeat c a ++ l.
Proof. intros. rewrite !app_assoc, <- !repeat_app, Nat.add_comm. reflexivity. Qed.

(** `prefix_in_padding` false: sign, prefix, the zero-padded numeral *)
Lemma render_integer_outside : forall neg iv padding precision blank sign radix pre caps,
  2 <= radix <= 16 -> 0 <= iv < 2 ^ 63 ->
  impl_render_integer neg iv padding precision blank sign radix pre false caps =
  sign_chars neg sign blank ++ pre ++
  pad_left (spec_numeral caps radix iv)
           (Z.max (Z.of_N padding - (if neg || blank || sign then 1 else 0) - Z.of_nat (length pre))
                  (Z.of_N precision)) ch_zero.
Proof.
  intros neg iv padding precision blank sign radix pre caps Hr Hz.
  unfold impl_render_integer, pad_left. cbv zeta. rewrite (sat_small iv Hz), andb_false_r.
  rewrite <- (numeral_refines caps radix iv Hr Hz), map_length, rev_length.
  do 4 f_equal. apply zero_fill.
Qed.

(** `prefix_in_padding` true: the code writes the prefix before the zeros, std.jsonnet pads prefix
    and numeral together; they agree because the prefix is made of zeros *)
Lemma render_integer_inside : forall neg iv padding precision blank sign radix k caps,
  2 <= radix <= 16 -> 0 <= iv < 2 ^ 63 -> (iv = 0 -> k = 0%nat) ->
  impl_render_integer neg iv padding precision blank sign radix (repeat ch_zero k) true caps =
  sign_chars neg sign blank ++
  pad_left (repeat ch_zero k ++ spec_numeral caps radix iv)
           (Z.max (Z.of_N padding - (if neg || blank || sign then 1 else 0)) (Z.of_N precision)) ch_zero.
Proof.
  intros neg iv padding precision blank sign radix k caps Hr Hz Hk.
  unfold impl_render_integer, pad_left. cbv zeta. rewrite (sat_small iv Hz), andb_true_r.
  replace (if iv =? 0 then [] else repeat ch_zero k) with (repeat ch_zero k)
    by (destruct (Z.eqb_spec iv 0) as [E|_]; [rewrite (Hk E)|]; reflexivity).
  rewrite <- (numeral_refines caps radix iv Hr Hz), repeat_swap.
  do 3 f_equal. rewrite app_length, map_length, rev_length.
  rewrite <- (Z.sub_0_r (Z.of_N padding - (if neg || blank || sign then 1 else 0))).
  unfold lenN. rewrite <- Nat2N.inj_add. apply (zero_fill _ _ _ 0).
Qed.

Lemma render_decimal_refines : forall neg iv padding precision blank sign,
  0 <= iv < 2 ^ 63 ->
  impl_render_decimal neg iv padding precision blank sign =
  spec_render_int neg iv (Z.of_N padding) (Z.of_N precision) blank sign 10 [].
Proof.
  intros neg iv padding precision blank sign Hz. unfold impl_render_decimal, spec_render_int.
  rewrite render_integer_outside by (unfold radix_decimal; lia).
  cbn [prefix_decimal length Z.of_nat app]. rewrite Z.sub_0_r.
  unfold spec_numeral. destruct (iv =? 0); reflexivity.
Qed.

Lemma render_octal_refines : forall neg iv padding precision alt blank sign,
  0 <= iv < 2 ^ 63 ->
  impl_render_octal neg iv padding precision alt blank sign =
  spec_render_int neg iv (Z.of_N padding) (Z.of_N precision) blank sign 8 (if alt then [ch_zero] else []).
Proof.
  intros neg iv padding precision alt blank sign Hz. unfold impl_render_octal, spec_render_int.
  assert (Hr : 2 <= radix_octal <= 16) by (unfold radix_octal; lia).
  destruct (Z.eqb_spec iv 0) as [->|E].
  - rewrite andb_false_r. apply render_integer_inside with (k := 0%nat); [exact Hr|exact Hz|reflexivity].
  - replace (1 <=? iv) with true by (symmetry; apply Z.leb_le; lia). rewrite andb_true_r. destruct alt.
    + apply render_integer_inside with (k := 1%nat); [exact Hr|exact Hz|contradiction].
    + apply render_integer_inside with (k := 0%nat); [exact Hr|exact Hz|reflexivity].
Qed.

Lemma render_hex_refines : forall n padding precision alt blank sign caps,
  Z.abs n < 2 ^ 63 ->
  impl_render_hex n padding precision alt blank sign caps =
  spec_render_hex n (Z.of_N padding) (Z.of_N precision) blank sign alt caps.
Proof.
  intros n padding precision alt blank sign caps Hz. unfold impl_render_hex, spec_render_hex.
  rewrite render_integer_outside by (unfold radix_hex; lia).
  destruct alt; [destruct caps|]; reflexivity.
Qed.

Lemma render_saturation_refuted :
  impl_render_decimal false (2 ^ 63) 0 0 false false <> spec_render_int false (2 ^ 63) 0 0 false false 10 [].
Proof. vm_compute. discriminate. Qed.

Lemma floor_abs_nonneg : forall n d, 0 < d -> 0 <= floor_abs n d.
Proof. intros. unfold floor_abs. apply Z.div_pos; lia. Qed.

Lemma int_class_bounds : forall n d sh c,
  0 < d -> known_int_class (VNum n d sh) c = false ->
  0 <= floor_abs n d < 2 ^ 63 /\ Z.abs (n / d) < 2 ^ 63.
Proof.
  intros n d sh c Hd Hk. apply orb_false_iff in Hk. destruct Hk as [H1 H2]. apply Z.leb_gt in H1, H2.
  split; [split; [apply floor_abs_nonneg; exact Hd | exact H1] | exact H2].
Qed.

Lemma int_format_nonvacuous_known : exists v c, wf_value v /\ is_int_conv (c_type c) = true /\ known_int_class v c = true.
Proof.
  exists (VNum (2 ^ 63) 1 []), {| c_mkey := []; c_flags := no_flags; c_width := WFixed 0; c_prec := None;
                                  c_type := GDecimal; c_caps := false |}.
  repeat split; vm_compute; reflexivity.
Qed.

(** once the guard has refused values <= -1, `as u32` is the floor of the magnitude cut at u32::MAX *)
Lemma as_u32_floor_abs : forall n d,
  0 < d -> le_m1 n d = false -> as_u32 n d = Z.min (floor_abs n d) 4294967295.
Proof.
  intros n d Hd L. unfold as_u32, le_m1 in *. destruct (Z.ltb_spec n 0) as [E|E].
  - pose proof (floor_abs_nonneg n d Hd). rewrite Z.geb_leb in L. apply Z.leb_gt in L. lia.
  - unfold floor_abs. rewrite Z.abs_eq by exact E. reflexivity.
Qed.

(** no scalar value is that large *)
Lemma sat_u32_char : forall u,
  (if valid_scalar (Z.min u 4294967295) then Ok [Z.to_N (Z.min u 4294967295)] else Err EChar) =
  (if valid_scalar u then Ok [Z.to_N u] else Err EChar).
Proof.
  intros u. destruct (Z.le_gt_cases u 4294967295) as [H|H]; [rewrite Z.min_l by exact H; reflexivity|].
  rewrite Z.min_r by lia. unfold valid_scalar.
  replace (u <=? 1114111) with false by (symmetry; apply Z.leb_gt; lia).
  rewrite (andb_false_r (0 <=? u)). reflexivity.
Qed.

Lemma pad_nonascii_example :
  impl_pad false 5 [233%N] = [32; 32; 32; 32; 233]%N /\ lenN (impl_pad true 5 [128512%N]) = 5%N.
Proof. split; vm_compute; reflexivity. Qed.

Lemma render_float_ok : forall num den padding precision b s e t,
  (precision <= 308)%N -> exists o, impl_render_float num den padding precision b s e t = Ok o.
Proof.
  intros. unfold impl_render_float. cbv zeta.
  replace (308 <? precision)%N with false by (symmetry; apply N.ltb_ge; assumption).
  destruct (precision =? 0)%N; [eexists; reflexivity|].
  match goal with |- context [if ?b then Ok _ else Ok _] => destruct b end; eexists; reflexivity.
Qed.

Lemma render_float_sci_ok : forall num den padding precision b s e t caps,
  (precision <= 308)%N -> exists o, impl_render_float_sci num den padding precision b s e t caps = Ok o.
Proof.
  intros. unfold impl_render_float_sci. cbv zeta.
  match goal with |- context [impl_render_float ?a ?b0 ?c ?d ?e0 ?f ?g ?h] =>
    destruct (render_float_ok a b0 c d e0 f g h H) as [o E] end.
  rewrite E. eexists. reflexivity.
Qed.

Lemma g_zero_precision_example :
  impl_render_shorter 1 2 0 0 false false false false = Ok [49%N] /\
  spec_render_shorter 1 2 0 0 false false false false = [49%N].
Proof. split; vm_compute; reflexivity. Qed.

(** [f] reads exactly [k] values off the front; its result does not depend on those behind *)
Definition takes {A} (f : list value -> res (A * list value)) (k : nat) : Prop :=
  forall vals a rest, f vals = Ok (a, rest) ->
  exists used, vals = used ++ rest /\ length used = k /\
               forall rest', f (used ++ rest') = Ok (a, rest').

Lemma takes_none : forall A B (r : res A) (h : A -> B), takes (fun vals => do a <- r; Ok (h a, vals)) 0.
Proof.
  intros A B r h vals b rest H. destruct r as [a|e]; [|discriminate]. inversion H; subst.
  exists []. repeat split.
Qed.

Lemma takes_ret : forall A (a : A), takes (fun vals => Ok (a, vals)) 0.
Proof. intros A a. exact (takes_none _ _ (Ok a) (fun x => x)). Qed.

Lemma takes_one : takes take_val 1.
Proof.
  intros [|v t] a rest H; [discriminate|]. inversion H; subst. exists [a]. repeat split.
Qed.

Lemma takes_bind : forall A B (f : list value -> res (A * list value))
                          (g : A * list value -> res (B * list value)) k1 k2,
  takes f k1 -> (forall a, takes (fun vals => g (a, vals)) k2) ->
  takes (fun vals => do ar <- f vals; g ar) (k1 + k2).
Proof.
  intros A B f g k1 k2 Hf Hg vals b rest H.
  destruct (f vals) as [[a r1]|e] eqn:F; [|discriminate].
  destruct (Hf _ _ _ F) as (u1 & -> & L1 & F1). destruct (Hg a _ _ _ H) as (u2 & -> & L2 & F2).
  exists (u1 ++ u2). rewrite <- app_assoc, app_length, L1, L2. repeat split.
  intros rest'. rewrite <- app_assoc, F1. apply F2.
Qed.

Lemma not_percent : forall t A (a b : A),
  t <> GPercent -> match t with GPercent => a | _ => b end = b.
Proof. intros [] A a b H; congruence. Qed.

Section RunFacts.
  Variable star_of : value -> res N.
  Variable fc : value -> code -> N -> option N -> res (list N).

  Lemma takes_star : forall A (h : N -> A),
    takes (fun vals => do vt <- take_val vals; do n <- star_of (fst vt); Ok (h n, snd vt)) 1.
  Proof.
    intros A h. apply (takes_bind _ _ take_val _ 1 0 takes_one).
    intros v. exact (takes_none _ _ (star_of v) h).
  Qed.

  Lemma step_arr_consumes : forall c vals out rest,
    step_arr star_of fc c vals = Ok (out, rest) ->
    exists used, vals = used ++ rest /\ length used = need_code c /\
                 forall rest', step_arr star_of fc c (used ++ rest') = Ok (out, rest').
  Proof.
    intros c. change (takes (step_arr star_of fc c) (need_code c)).
    (* (w + p) + v, reshaped into w + (p + (v + 0)): one summand per nested [takes_bind] *)
    unfold need_code. rewrite <- Nat.add_assoc, <- (Nat.add_0_r (match c_type c with GPercent => _ | _ => _ end)).
    unfold step_arr. apply takes_bind.
    - destruct (c_width c); [apply (takes_star _ (fun n => n)) | apply takes_ret].
    - intros w. cbn [fst snd]. apply takes_bind.
      + destruct (c_prec c) as [[|n]|]; [apply (takes_star _ Some) | apply takes_ret ..].
      + intros p. cbn [fst snd]. apply takes_bind.
        * destruct (c_type c); try apply takes_one. apply takes_ret.
        * intros v. cbn [fst snd]. apply (takes_none _ _ _ (fun out => out)).
  Qed.

  Lemma values_consumed : forall es vals out,
    run_arr star_of fc es vals = Ok out -> length vals = need es.
  Proof.
    induction es as [|[s|c] t IH]; intros vals out H; cbn [run_arr need] in *.
    - destruct vals; [reflexivity|discriminate].
    - destruct (run_arr star_of fc t vals) eqn:R; [|discriminate]. eapply IH. exact R.
    - destruct (step_arr star_of fc c vals) as [[o rest]|e] eqn:S; [|discriminate]. cbn [bind fst snd] in H.
      destruct (run_arr star_of fc t rest) eqn:R; [|discriminate].
      destruct (step_arr_consumes _ _ _ _ S) as [used [E [L _]]]. subst.
      rewrite app_length, L, (IH _ _ R). reflexivity.
  Qed.

  Lemma wrong_count_is_error : forall es vals,
    length vals <> need es -> exists e, run_arr star_of fc es vals = Err e.
  Proof.
    intros es vals H. destruct (run_arr star_of fc es vals) eqn:R; [|eexists; reflexivity].
    exfalso. apply H. eapply values_consumed. exact R.
  Qed.

  Lemma percent_consumes_nothing : forall c w vals,
    c_type c = GPercent -> c_width c = WFixed w -> c_prec c <> Some WStar ->
    step_arr star_of fc c vals =
    do out <- fc (VOpq []) c w (match c_prec c with Some (WFixed n) => Some n | _ => None end); Ok (out, vals).
  Proof.
    intros c w vals T W P. unfold step_arr. rewrite T, W.
    destruct (c_prec c) as [[|n]|]; [congruence| |]; reflexivity.
  Qed.

  Lemma step_obj_fixed : forall c fs w,
    c_width c = WFixed w -> c_prec c <> Some WStar ->
    step_obj fc c fs =
    do v <- match c_type c with
            | GPercent => Ok (VOpq [])
            | _ => match c_mkey c with [] => Err EKeysReq | k => lookup fs k end
            end;
    fc v c w (match c_prec c with Some (WFixed n) => Some n | _ => None end).
  Proof.
    intros c fs w W P. unfold step_obj. rewrite W.
    destruct (c_prec c) as [[|n]|]; [congruence| |]; reflexivity.
  Qed.

End RunFacts.

Lemma split_dot_nodot : forall s cur, ~ In ch_dot s -> split_dot s cur = [rev cur ++ s].
Proof.
  induction s as [|c t IH]; intros cur H; cbn [split_dot].
  - rewrite app_nil_r. reflexivity.
  - apply not_in_cons in H as [Hc Ht]. rewrite (proj2 (N.eqb_neq c ch_dot)) by congruence.
    rewrite IH by exact Ht. cbn [rev]. rewrite <- app_assoc. reflexivity.
Qed.

Lemma lit_span_nopct : forall s, ~ In ch_pct s -> lit_span s = (s, []).
Proof.
  induction s as [|c t IH]; intros H; cbn [lit_span]; [reflexivity|].
  apply not_in_cons in H as [Hc Ht]. rewrite (proj2 (N.eqb_neq c ch_pct)) by congruence.
  rewrite IH by exact Ht. reflexivity.
Qed.

Lemma percent_example :
  impl_std_format [97; 37; 37; 98]%N (TArr []) = Ok [97; 37; 98]%N /\
  spec_std_format [97; 37; 37; 98]%N (TArr []) = Ok [97; 37; 98]%N.
Proof. split; vm_compute; reflexivity. Qed.

