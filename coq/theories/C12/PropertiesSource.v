(** C12 — source tie, property theorems.  Gen/GenFormatParse.v is re-translated from
    stdlib/format.rs on every run and these theorems re-checked against it; helper lemmas are in
    ProofsSource.v. *)
From Coq Require Import List ZArith NArith Bool.
From JrV Require Import Gen.GenFormat Gen.GenFormatParse C12.Model C12.ModelSource C12.Proofs C12.ProofsSource.
Import ListNotations.

(** The six sub-parsers translated from try_parse_mapping_key / _cflags / _field_width / _precision /
    _length_modifier / parse_conversion_type are the hand model's, for EVERY string. *)
Theorem C12_model_is_translated_source_subparsers : forall s,
  gen_mapping_key s = impl_mapping_key s /\ gen_cflags s = impl_cflags s /\
  gen_field_width s = impl_field_width s /\ gen_precision s = impl_precision s /\
  gen_lenmod s = impl_lenmod s /\ gen_convtype s = impl_convtype s.
Proof.
  intros s. exact (conj (src_mapping_key s) (conj (src_cflags s) (conj (src_field_width s)
         (conj (src_precision s) (conj (src_lenmod s) (src_convtype s)))))).
Qed.
Print Assumptions C12_model_is_translated_source_subparsers.

(** parse_code: the order of the try_parse_* calls and the fields of the Code record. *)
Theorem C12_model_is_translated_source_parse_code : forall s, gen_parse_code s = impl_parse_code s.
Proof. exact src_parse_code. Qed.
Print Assumptions C12_model_is_translated_source_parse_code.

(** parse_codes: literal runs, the `%` introducer, the loop over codes. *)
Theorem C12_model_is_translated_source_parser : forall s, gen_parse_codes s = impl_parse_codes s.
Proof. exact src_parse_codes_eq. Qed.
Print Assumptions C12_model_is_translated_source_parser.

(** format_arr: the value-slice bookkeeping of one code and the loop with its leftover test,
    any renderer. *)
Theorem C12_model_is_translated_source_arr : forall star_of fc,
  (forall c vals, gen_step_arr star_of fc c vals = step_arr star_of fc c vals) /\
  (forall es vals, gen_run_arr star_of fc es vals = run_arr star_of fc es vals).
Proof. intros so fc. exact (conj (src_step_arr so fc) (src_run_arr so fc)). Qed.
Print Assumptions C12_model_is_translated_source_arr.

(** format_obj: `*` refused, mapping key required, field lookup then dotted path. *)
Theorem C12_model_is_translated_source_obj : forall fc,
  (forall c fs, gen_step_obj fc c fs = step_obj fc c fs) /\
  (forall es fs, gen_run_obj fc es fs = run_obj fc es fs).
Proof. intros fc. exact (conj (src_step_obj fc) (src_run_obj fc)). Qed.
Print Assumptions C12_model_is_translated_source_obj.

(** std.format assembled from the translated functions is the hand model. *)
Theorem C12_model_is_translated_source_format : forall fmt t, src_std_format fmt t = impl_std_format fmt t.
Proof.
  intros fmt [vs|fs|v]; unfold src_std_format, impl_std_format, std_format.
  - rewrite src_format_arr. reflexivity.
  - rewrite src_format_obj. reflexivity.
  - rewrite src_format_arr. reflexivity.
Qed.
Print Assumptions C12_model_is_translated_source_format.

(** Corollary: the TRANSLATED parser refines the printf grammar SPEC, for every string. *)
Theorem C12_source_parse_refines : forall s, src_parse_codes s = spec_parse_codes s.
Proof. intros s. unfold src_parse_codes. rewrite src_parse_codes_eq. apply parse_refines. Qed.
Print Assumptions C12_source_parse_refines.

(** Corollaries: value consumption exactness of the TRANSLATED format_arr. *)
Theorem C12_source_values_consumed_ltr : forall star_of fc c vals out rest,
  gen_step_arr star_of fc c vals = Ok (out, rest) ->
  exists used, vals = used ++ rest /\ length used = need_code c /\
               forall rest', gen_step_arr star_of fc c (used ++ rest') = Ok (out, rest').
Proof.
  intros so fc c vals out rest. setoid_rewrite src_step_arr. apply step_arr_consumes.
Qed.
Print Assumptions C12_source_values_consumed_ltr.

Theorem C12_source_value_count : forall star_of fc es vals,
  (forall out, gen_run_arr star_of fc es vals = Ok out -> length vals = need es) /\
  (length vals <> need es -> exists e, gen_run_arr star_of fc es vals = Err e).
Proof.
  intros. rewrite src_run_arr. split; [intros out; apply values_consumed | apply wrong_count_is_error].
Qed.
Print Assumptions C12_source_value_count.

Theorem C12_source_percent_consumes_nothing : forall star_of fc c w vals,
  c_type c = GPercent -> c_width c = WFixed w -> c_prec c <> Some WStar ->
  gen_step_arr star_of fc c vals =
  bind (fc (VOpq []) c w (match c_prec c with Some (WFixed n) => Some n | _ => None end))
       (fun out => Ok (out, vals)).
Proof. intros. rewrite src_step_arr. apply percent_consumes_nothing; assumption. Qed.
Print Assumptions C12_source_percent_consumes_nothing.

(** "%(k)#05.3ld" through the translated parser: key, two flags, width, precision, one modifier. *)
Example C12_source_parser_nonvacuous :
  gen_parse_codes [120; 37; 40; 107; 41; 35; 48; 53; 46; 51; 108; 100; 121]%N =
  Ok [EStr [120%N];
      ECode {| c_mkey := [107%N]; c_flags := set_flag FZero (set_flag FAlt no_flags); c_width := WFixed 5;
               c_prec := Some (WFixed 3); c_type := GDecimal; c_caps := false |};
      EStr [121%N]] /\
  gen_parse_codes [37; 53]%N = Err ETrunc /\
  gen_parse_codes [37; 54; 53; 53; 51; 54; 100]%N = Err ETooLarge /\
  gen_parse_codes [37; 108; 108; 100]%N = Err (EUnrec 108).
Proof. repeat split; vm_compute; reflexivity. Qed.

(** "%*.*f|%%|%s" % [8, 2, 3.14159, "x"]: three values, none, one; one short / one too many
    are the two count errors. *)
Example C12_source_format_nonvacuous :
  let fmt := [37; 42; 46; 42; 102; 124; 37; 37; 124; 37; 115]%N in
  src_std_format fmt (TArr [VNum 8 1 []; VNum 2 1 []; VNum 314159 100000 []; VStr [120%N]]) =
    Ok [32; 32; 32; 32; 51; 46; 49; 52; 124; 37; 124; 120]%N /\
  src_std_format fmt (TArr [VNum 8 1 []; VNum 2 1 []; VNum 314159 100000 []]) = Err ENotEnough /\
  src_std_format fmt (TArr [VNum 8 1 []; VNum 2 1 []; VNum 314159 100000 []; VStr [120%N]; VStr []]) = Err ETooMany /\
  src_std_format [37; 40; 97; 41; 100]%N (TObj [([97%N], VNum 7 1 [])]) = Ok [55%N] /\
  src_std_format [37; 42; 100]%N (TObj [([97%N], VNum 7 1 [])]) = Err EStarObj /\
  src_std_format [37; 100]%N (TObj [([97%N], VNum 7 1 [])]) = Err EKeysReq.
Proof. cbv zeta. repeat split; vm_compute; reflexivity. Qed.

Example C12_source_values_consumed_nonvacuous :
  exists out, gen_step_arr impl_u16_of impl_format_code
    {| c_mkey := []; c_flags := no_flags; c_width := WStar; c_prec := Some WStar; c_type := GFloat; c_caps := false |}
    [VNum 8 1 []; VNum 2 1 []; VNum 314159 100000 []; VStr [120%N]] = Ok (out, [VStr [120%N]]).
Proof. eexists. vm_compute. reflexivity. Qed.
