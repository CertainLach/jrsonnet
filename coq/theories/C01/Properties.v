(** C01 — property theorems on the scope chain and the argument binder; their lemmas are in Proofs.v. *)
From Coq Require Import List ZArith NArith Bool Arith Lia Permutation.
From JrV Require Sem.Syntax Sem.Interp Sem.Mono.
From JrV Require Import C01.Model C01.Proofs.
Import ListNotations.

(** variable lookup through any chain of scope layers = lookup in the right-biased union *)
Theorem C01_scope_flatten :
  forall (V : Type) (l : layered V) (k : name), lget k l = hget k (flatten l).
Proof.
  intros V l k. induction l as [cur|parent IH cur]; cbn [lget flatten]; [reflexivity|].
  rewrite hget_app, IH. reflexivity.
Qed.
Print Assumptions C01_scope_flatten.

Theorem C01_scope_contains :
  forall (V : Type) (l : layered V) (k : name),
    lcontains k l = match lget k l with Some _ => true | None => false end.
Proof.
  intros V l k. induction l as [cur|parent IH cur]; cbn [lcontains lget]; [reflexivity|].
  destruct (hget k cur); [reflexivity|exact IH].
Qed.
Print Assumptions C01_scope_contains.

(** the transliterated binder succeeds exactly on the calls the language admits ... *)
Theorem C01_argbind_sound :
  forall ps u named m,
    NoDup (map fst ps) -> bind_impl ps u named = inl m -> spec_ok ps u named.
Proof.
  intros ps u named m Hnd H. unfold bind_impl in H.
  destruct (Nat.ltb_spec (length ps) u) as [|Hu]; [discriminate|].
  destruct (bind_named ps named u (bind_pos ps 0 u [])) as [passed|e] eqn:Hb; [|discriminate].
  destruct (bind_named_inv _ _ _ _ _ Hb) as (Hk & HndN & Hfree).
  assert (Hdis : NoDup (firstn u (map fst ps) ++ named)).
  { apply NoDup_app_iff. split; [apply NoDup_firstn; exact Hnd|]. split; [exact HndN|].
    intros x HP HN. specialize (Hfree x HN). rewrite bind_pos_get in Hfree by assumption.
    apply index_of_some_iff in HP. destruct HP as [j Hj]. rewrite Hj in Hfree. discriminate. }
  destruct (passed_spec ps u named Hnd Hk Hdis) as (passed' & Hb' & Hget).
  rewrite Hb in Hb'. injection Hb' as <-.
  split; [exact Hu|]. split; [exact Hk|]. split; [exact Hdis|].
  apply (all_specified_iff ps u named Hnd passed Hget).
  pose proof (partition_eq ps u named Hnd Hu Hk Hdis passed Hget) as Hpart.
  pose proof (bind_defaults_spec ps 0 passed Hnd) as Hd.
  destruct (bind_defaults ps 0 passed) as [defs c]. destruct Hd as [Hc _].
  apply length_zero_iff_nil.
  destruct (Nat.ltb_spec (length named + u) (length ps)) as [Hsmall|Hbig].
  - destruct (Nat.eqb_spec (length named + c + u) (length ps)) as [Heq|Hne].
    + lia.
    + destruct (first_unbound (skipn u ps) named); discriminate.
  - lia.
Qed.
Print Assumptions C01_argbind_sound.

(** ... and then binds every parameter to the source the language prescribes *)
Theorem C01_argbind_complete :
  forall ps u named,
    NoDup (map fst ps) -> spec_ok ps u named ->
    exists m, bind_impl ps u named = inl m /\
      forall i n d, nth_error ps i = Some (n, d) -> aget n m = spec_src ps u named i.
Proof.
  intros ps u named Hnd (Hu & Hk & Hdis & Hall).
  destruct (passed_spec ps u named Hnd Hk Hdis) as (passed & Hb & Hget).
  pose proof (partition_eq ps u named Hnd Hu Hk Hdis passed Hget) as Hpart.
  pose proof (proj2 (all_specified_iff ps u named Hnd passed Hget) Hall) as Hnil.
  rewrite Hnil in Hpart. cbn [length] in Hpart.
  unfold bind_impl. destruct (Nat.ltb_spec (length ps) u) as [Hlt|_]; [lia|]. rewrite Hb.
  pose proof (bind_defaults_spec ps 0 passed Hnd) as Hd.
  destruct (bind_defaults ps 0 passed) as [defs c]. destruct Hd as [Hc Hdget].
  destruct (Nat.ltb_spec (length named + u) (length ps)) as [Hsmall|Hbig].
  - destruct (Nat.eqb_spec (length named + c + u) (length ps)) as [_|Hne]; [|lia].
    exists (defs ++ passed). split; [reflexivity|]. intros i n d Hi.
    rewrite aget_app, Hdget.
    pose proof (nth_error_fst _ _ _ _ Hi) as Hn.
    rewrite (index_of_nth _ _ _ Hnd Hn), Hi, (spec_src_bound ps u named Hnd passed Hget i n d Hi).
    destruct d, (bound passed n) eqn:B; cbn [Nat.add]; try reflexivity;
      unfold bound in B; destruct (aget n passed); try discriminate; reflexivity.
  - exists passed. split; [reflexivity|]. intros i n d Hi.
    rewrite (spec_src_bound ps u named Hnd passed Hget i n d Hi).
    assert (Hz : length (filter (fun p => snd p && negb (bound passed (fst p))) ps) = 0) by lia.
    apply length_zero_iff_nil in Hz. rewrite filter_nil_iff in Hz.
    specialize (Hz (n, d) (nth_error_In _ _ Hi)). cbn [fst snd] in Hz.
    assert (Hnil' := proj1 (filter_nil_iff _ _) Hnil (n, d) (nth_error_In _ _ Hi)). cbn [fst snd] in Hnil'.
    destruct (bound passed n); [reflexivity|]. destruct d; discriminate.
Qed.
Print Assumptions C01_argbind_complete.

(** any suffix of the arguments may be passed by name, in any order: each parameter receives the
    same argument expression *)
Theorem C01_call_style_invariant :
  forall ps u k (perm : list name),
    NoDup (map fst ps) -> u <= length ps -> k <= u ->
    Permutation perm (firstn (u - k) (skipn k (map fst ps))) ->
    (forall i, i < length ps -> spec_src ps u [] i <> None) ->
    spec_ok ps k perm /\
    forall i n d, nth_error ps i = Some (n, d) ->
      match spec_src ps u [] i, spec_src ps k perm i with
      | Some (SArg a), Some (SArg b) =>
          a = i /\ (i < k -> b = i) /\ (k <= i -> exists j, b = k + j /\ nth_error perm j = Some n)
      | Some (SDefault a), Some (SDefault b) => a = b
      | _, _ => False
      end.
Proof.
  intros ps u k perm Hnd Hu Hk Hperm Hall. split.
  - split; [lia|]. split; [|split].
    + intros n Hn. apply (Permutation_in _ Hperm), In_slice in Hn as (i & _ & Hi).
      eapply nth_error_In, Hi.
    + apply (Permutation_NoDup (l := firstn u (map fst ps))); [|apply NoDup_firstn, Hnd].
      rewrite <- (firstn_slice _ k u Hk). apply Permutation_app_head, Permutation_sym, Hperm.
    + intros i Hi. destruct (nth_error ps i) as [[n d]|] eqn:E; [|apply nth_error_None in E; lia].
      destruct (Nat.lt_ge_cases i k) as [H1|H1]; [rewrite (spec_src_pos _ _ _ _ _ _ E H1); discriminate|].
      destruct (Nat.lt_ge_cases i u) as [H2|H2].
      * destruct (spec_src_named ps u k perm Hnd Hperm i n d E (conj H1 H2)) as (j & -> & _).
        discriminate.
      * rewrite (spec_src_beyond ps u k perm Hnd Hk Hperm i n d E H2). apply Hall, Hi.
  - intros i n d Hi.
    destruct (Nat.lt_ge_cases i u) as [H2|H2].
    + rewrite (spec_src_pos _ u _ _ _ _ Hi H2). destruct (Nat.lt_ge_cases i k) as [H1|H1].
      * rewrite (spec_src_pos _ k _ _ _ _ Hi H1). split; [reflexivity|]. split; [reflexivity|lia].
      * destruct (spec_src_named ps u k perm Hnd Hperm i n d Hi (conj H1 H2)) as (j & -> & Hj).
        split; [reflexivity|]. split; [lia|eauto].
    + rewrite (spec_src_beyond ps u k perm Hnd Hk Hperm i n d Hi H2).
      assert (Hi' : i < length ps) by (apply nth_error_Some; congruence).
      specialize (Hall i Hi'). rewrite (spec_src_rest _ _ _ _ _ _ Hi H2) in *.
      destruct d; [reflexivity|contradiction].
Qed.
Print Assumptions C01_call_style_invariant.

(** non-vacuity: f(a, b=.., c) called as f(x, c=y) *)
Example C01_binder_example :
  spec_ok [(1%N, false); (2%N, true); (3%N, false)] 1 [3%N] /\
  bind_impl [(1%N, false); (2%N, true); (3%N, false)] 1 [3%N]
    = inl [(2%N, SDefault 1); (3%N, SArg 1); (1%N, SArg 0)].
Proof.
  split; [|reflexivity]. unfold spec_ok. cbn. repeat split.
  - auto.
  - intros n [<-|[]]. auto.
  - repeat constructor; cbn; intuition discriminate.
  - intros i Hi. destruct i as [|[|[|i]]]; cbn; try discriminate. lia.
Qed.

(** Sem, the whole-language SPEC of C01 (and, through its trace log, of C03): an outcome other than
    "out of fuel", with its log, does not depend on the fuel.  The FUEL constant of the checks
    selects which programs are judged, never the judgement. *)
Theorem C01_sem_fuel_independent :
  forall n m e, n <= m ->
    fst (JrV.Sem.Interp.run n e) <> JrV.Sem.Interp.OErr JrV.Sem.Interp.KFuel ->
    JrV.Sem.Interp.run m e = JrV.Sem.Interp.run n e.
Proof. exact JrV.Sem.Mono.run_fuel_independent. Qed.
Print Assumptions C01_sem_fuel_independent.
