(** The translated operator dispatch (Gen/GenOps.v, from evaluate/operator.rs and val.rs) against
    Sem, in two halves: (1) for all values, fuels and stores, Sem's [binop_val] / [equals] /
    [compare_val] and the EUn / BAnd / BOr cases of [eval] are [class_sem] of the SPEC tables of
    ModelOps.v; (2) the translated tables equal the SPEC tables on the finite index set.
    PropertiesOps.v puts the two together. *)
From Coq Require Import List ZArith NArith Bool.
From JrV Require Import Sem.Syntax Sem.Interp Common.OpClass Gen.GenOps C01.ModelOps.
Import ListNotations.

Definition lazy_op (o : binop) : bool := match o with BAnd | BOr => true | _ => false end.

(** *** (1) Sem is the reading of the spec tables *)
Lemma equals_spec n a b s :
  equals (S n) a b s = eq_sem (spec_eq (ty a) (ty b)) n a b s.
Proof. destruct a, b; reflexivity. Qed.

Lemma compare_spec n a b s :
  compare_val (S n) a b s =
  match spec_cmp IsLt (ty a) (ty b) with
  | CCmp k _ => cmp_sem k n a b s
  | _ => (Err KType, s)
  end.
Proof. destruct a; try reflexivity; destruct b; reflexivity. Qed.

Lemma spec_correct n o a b s :
  lazy_op o = false ->
  binop_val (S (S n)) o a b s = class_sem (spec_class o (ty a) (ty b) (flags_of a b)) n a b s.
Proof.
  intro H.
  destruct o; try discriminate H; clear H.
  all: destruct a as [|ba|za|sa|ca|oa la|fe fo fp fb]; try reflexivity.
  all: destruct b as [|bb|zb|sb|cb|ob lb|ge go gp gb]; try reflexivity.
  all: try (destruct zb; reflexivity).
  all: try (destruct sa; reflexivity).
  all: try (destruct sb; reflexivity).
  (* boolean + string: the to-string of a boolean looks at its value *)
  destruct sb; destruct ba; reflexivity.
Qed.

Lemma unary_spec n ev oc o e s :
  eval (S n) ev oc (EUn o e) s =
  match eval n ev oc e s with
  | (Ok v, s') => uclass_sem (spec_uclass o (ty v)) v s'
  | (Err k, s') => (Err k, s')
  end.
Proof.
  cbn [eval]. unfold bind.
  destruct (eval n ev oc e s) as [[v|k] s']; [|reflexivity].
  destruct o, v; reflexivity.
Qed.

Lemma special_spec n ev oc o a b s :
  lazy_op o = true ->
  eval (S n) ev oc (EBin o a b) s =
  match eval n ev oc a s with
  | (Err k, s1) => (Err k, s1)
  | (Ok va, s1) =>
      match spec_special o va with
      | SShort r => (Ok (VBool r), s1)
      | SNormal =>
          match eval n ev oc b s1 with
          | (Err k, s2) => (Err k, s2)
          | (Ok vb, s2) => class_sem (spec_class o (ty va) (ty vb) (flags_of va vb)) n va vb s2
          end
      end
  end.
Proof.
  intro H. destruct o; try discriminate H; clear H.
  all: cbn [eval].
  all: unfold bind; destruct (eval n ev oc a s) as [[va|k] s1]; [|reflexivity].
  all: destruct va as [|[|]| | | | |]; try reflexivity.
  all: destruct (eval n ev oc b s1) as [[vb|k] s2]; try reflexivity.
  all: destruct vb; reflexivity.
Qed.

(** *** (2) the translated tables are the spec tables *)
Lemma in_all_binop o : In o all_binop.
Proof. destruct o; simpl; tauto. Qed.
Lemma in_all_unop o : In o all_unop.
Proof. destruct o; simpl; tauto. Qed.
Lemma in_all_vty t : In t all_vty.
Proof. destruct t; simpl; tauto. Qed.
Lemma in_all_flags f : In f all_flags.
Proof. destruct f as [[|] [|] [|]]; simpl; tauto. Qed.

Lemma all_cells (P : binop -> vty -> vty -> flags -> bool) :
  forallb (fun o => forallb (fun ta => forallb (fun tb => forallb (P o ta tb)
    all_flags) all_vty) all_vty) all_binop = true ->
  forall o ta tb f, P o ta tb f = true.
Proof.
  intros H o ta tb f.
  rewrite forallb_forall in H. specialize (H o (in_all_binop o)).
  rewrite forallb_forall in H. specialize (H ta (in_all_vty ta)).
  rewrite forallb_forall in H. specialize (H tb (in_all_vty tb)).
  rewrite forallb_forall in H. exact (H f (in_all_flags f)).
Qed.

(** [optable_ok = true] with the body written out: [C01_optable_actions_table] matches it without
    evaluating the table again *)
Lemma optable_table :
  forallb (fun o => forallb (fun ta => forallb (fun tb => forallb (fun f =>
    implb (flags_consistent ta tb f)
          (opt_fclass_beq (gen_class o ta tb f) (Some (spec_class o ta tb f))))
    all_flags) all_vty) all_vty) all_binop = true.
Proof. vm_compute. reflexivity. Qed.

Lemma unary_table : unary_table_ok = true.
Proof. vm_compute. reflexivity. Qed.

Lemma special_table : special_table_ok = true.
Proof. vm_compute. reflexivity. Qed.

Lemma flags_of_consistent a b : flags_consistent (ty a) (ty b) (flags_of a b) = true.
Proof. destruct a as [| | |[|]| | |], b as [| |[| |]|[|]| | |]; reflexivity. Qed.

Lemma gen_is_spec o ta tb f :
  flags_consistent ta tb f = true -> gen_class o ta tb f = Some (spec_class o ta tb f).
Proof.
  intro Hc. pose proof (all_cells _ optable_table o ta tb f) as H.
  cbv beta in H. rewrite Hc in H.
  destruct (gen_class o ta tb f) as [c|]; [|discriminate H].
  apply internal_fclass_dec_bl in H. congruence.
Qed.

Lemma gen_is_spec_val o a b :
  gen_class o (ty a) (ty b) (flags_of a b) = Some (spec_class o (ty a) (ty b) (flags_of a b)).
Proof. apply gen_is_spec, flags_of_consistent. Qed.

Lemma gen_uclass_is_spec o t : gen_uclass o t = Some (spec_uclass o t).
Proof.
  pose proof unary_table as H. unfold unary_table_ok in H.
  rewrite forallb_forall in H. specialize (H o (in_all_unop o)).
  rewrite forallb_forall in H. specialize (H t (in_all_vty t)).
  destruct (gen_uclass o t) as [c|]; [|discriminate H].
  apply internal_uaction_dec_bl in H. congruence.
Qed.

(** the short-circuit arms look at the left VALUE only through [lpat_ok]: every value behaves like
    its representative *)
Definition rep (v : value) : value :=
  match v with
  | VNull => VNull | VBool b => VBool b | VNum _ => VNum 0 | VStr _ => VStr []
  | VArr _ => VArr [] | VObj _ _ => VObj 0 [] | VFun _ _ _ _ => VFun [] no_octx [] ENull
  end.
Lemma in_special_reps v : In (rep v) special_reps.
Proof. destruct v as [|[|]| | | | |]; simpl; tauto. Qed.
Lemma gen_special_rep arms o v : gen_special_from arms o v = gen_special_from arms o (rep v).
Proof.
  induction arms as [|[l po a] t IH]; [reflexivity|]. simpl. rewrite IH.
  replace (lpat_ok l (rep v)) with (lpat_ok l v); [reflexivity|].
  destruct l, v; reflexivity.
Qed.
Lemma spec_special_rep o v : spec_special o v = spec_special o (rep v).
Proof. destruct o, v; reflexivity. Qed.

Lemma gen_special_is_spec o v : gen_special o v = Some (spec_special o v).
Proof.
  unfold gen_special. rewrite gen_special_rep, spec_special_rep.
  pose proof special_table as H. unfold special_table_ok in H.
  rewrite forallb_forall in H. specialize (H o (in_all_binop o)).
  rewrite forallb_forall in H. specialize (H (rep v) (in_special_reps v)).
  unfold gen_special in H.
  destruct (gen_special_from gen_special_arms o (rep v)) as [c|]; [|discriminate H].
  apply internal_saction_dec_bl in H. congruence.
Qed.

(** [gen_class] hands `==` and `<` to [gen_eq] and [gen_cmp]: the BEq and BLt rows of the table *)
Lemma gen_eq_is_spec ta tb : gen_eq ta tb = Some (spec_eq ta tb).
Proof.
  assert (H : option_map (CEq false) (gen_eq ta tb) = Some (CEq false (spec_eq ta tb)))
    by exact (gen_is_spec BEq ta tb (Flags false false false) eq_refl).
  destruct (gen_eq ta tb); [injection H as ->; reflexivity | discriminate H].
Qed.

Lemma gen_cmp_is_spec ta tb :
  match gen_cmp ta tb with
  | Some (Some k) => Some (CCmp k IsLt)
  | Some None => Some CTypeError
  | None => None
  end = Some (spec_cmp IsLt ta tb).
Proof. exact (gen_is_spec BLt ta tb (Flags false false false) eq_refl). Qed.

Definition is_fun (v : value) : bool := match v with VFun _ _ _ _ => true | _ => false end.
Definition is_num (v : value) : bool := match v with VNum _ => true | _ => false end.

(** the classes whose outcome is decided at the dispatch itself (no nested comparison / equality
    of elements, no to-string of a function, no zero divisor under a non-number) *)
Definition dispatch_level (c : fclass) (a b : value) : bool :=
  match c with
  | CTypeError => false
  | CDivZero => is_num a
  | CCmp KArr _ => false
  | CEq _ QArr | CEq _ QObj | CEq _ QFuncErr => false
  | CToStrOf SideR | CStrToStr => negb (is_fun b)
  | CToStrOf SideL | CToStrStr => negb (is_fun a)
  | _ => true
  end.

Lemma retnum_not_ktype z s : fst (retnum z s) <> Err KType.
Proof. unfold retnum, num. destruct (Z.abs z <=? two53)%Z; discriminate. Qed.

Lemma arith_not_ktype c n x y s :
  match c with CNum _ | CBit _ | CShl | CShr => True | _ => False end ->
  fst (class_sem c n (VNum x) (VNum y) s) <> Err KType.
Proof.
  (* [CNum] and [CBit] are split by their operation as well *)
  destruct c as [ | |[]|[]| | | | | | | | | | | | | | | | | ]; try contradiction; intros _.
  all: cbn [class_sem].
  all: repeat match goal with |- context [if ?c then _ else _] => destruct c end.
  all: try apply retnum_not_ktype; discriminate.
Qed.

(** For any guard facts.  The left operand alone settles most cells, the right one most of the
    rest; the guard facts matter in a few `+`, `/` and `%` cells only. *)
Lemma spec_not_ktype n o a b f s :
  lazy_op o = false ->
  spec_class o (ty a) (ty b) f <> CTypeError ->
  dispatch_level (spec_class o (ty a) (ty b) f) a b = true ->
  fst (class_sem (spec_class o (ty a) (ty b) f) n a b s) <> Err KType.
Proof.
  intros Hl Hc Hd. destruct o; try discriminate Hl; clear Hl.
  all: destruct a as [|ba|za|sa|ca|oa la|fe fo fp fb]; try (elim Hc; reflexivity).
  all: destruct b as [|bb|zb|sb|cb|ob lb|ge go gp gb]; try (elim Hc; reflexivity); try discriminate Hd.
  all: try discriminate.
  all: try (apply arith_not_ktype; exact I).
  all: destruct f as [[|] [|] [|]]; try (elim Hc; reflexivity); try discriminate Hd.
  all: try discriminate.
  all: try (apply arith_not_ktype; exact I).
  all: try (destruct ba; discriminate).
  all: try (destruct bb; discriminate).
Qed.

Lemma strconcat_divzero_cells o ta tb f :
  (spec_class o ta tb f = CStrConcat ->
   binop_beq o BAdd && vty_beq ta TStr && vty_beq tb TStr = true) /\
  (spec_class o ta tb f = CDivZero ->
   (binop_beq o BDiv || binop_beq o BMod) && vty_beq tb TNum && f_rzero f
   && negb (vty_beq ta TStr) = true).
Proof.
  pose proof (all_cells (fun o ta tb f =>
    implb (fclass_beq (spec_class o ta tb f) CStrConcat)
          (binop_beq o BAdd && vty_beq ta TStr && vty_beq tb TStr)
    && implb (fclass_beq (spec_class o ta tb f) CDivZero)
             ((binop_beq o BDiv || binop_beq o BMod) && vty_beq tb TNum && f_rzero f
              && negb (vty_beq ta TStr)))
    ltac:(vm_compute; reflexivity) o ta tb f) as T.
  cbv beta in T. apply andb_prop in T as [T1 T2].
  split; intros H; rewrite H in *; assumption.
Qed.

(** non-vacuity of the hypotheses of PropertiesOps.v *)
Example ex_type_error : gen_class BSub (ty (VStr [97%N])) (ty (VNum 1)) (flags_of (VStr [97%N]) (VNum 1)) = Some CTypeError.
Proof. reflexivity. Qed.
Example ex_dispatch_level :
  gen_class BAdd (ty (VStr [])) (ty VNull) (flags_of (VStr []) VNull) = Some (CToStrOf SideR)
  /\ dispatch_level (CToStrOf SideR) (VStr []) VNull = true.
Proof. split; reflexivity. Qed.
Example ex_actions :
  binop_val 2 BAdd (VNum 2) (VStr [120%N]) empty_store = (Ok (VStr [50%N; 120%N]), empty_store)
  /\ gen_class BAdd TNum TStr (flags_of (VNum 2) (VStr [120%N])) = Some CNumStr.
Proof. split; reflexivity. Qed.
Example ex_divzero : gen_class BMod (ty VNull) (ty (VNum 0)) (flags_of VNull (VNum 0)) = Some CDivZero.
Proof. reflexivity. Qed.
Example ex_unary :
  eval 1 [] no_octx (ENum 5) empty_store = (Ok (VNum 5), empty_store)
  /\ gen_uclass UNot (ty (VNum 5)) = Some UaTypeError
  /\ eval 2 [] no_octx (EUn UNot (ENum 5)) empty_store = (Err KType, empty_store).
Proof. repeat split; reflexivity. Qed.
Example ex_short :
  eval 2 [] no_octx (EBin BAnd (EBool false) (EError (EStr []))) empty_store = (Ok (VBool false), empty_store)
  /\ eval 3 [] no_octx (EBin BAnd (EBool true) (EError (EStr []))) empty_store = (Err KRuntime, empty_store).
Proof. split; reflexivity. Qed.
Example ex_nonbool_left :
  eval 2 [] no_octx (EBin BOr (ENum 1) (EBool true)) empty_store = (Err KType, empty_store)
  /\ ty (VNum 1) <> TBool.
Proof. split; [reflexivity | discriminate]. Qed.
Example ex_equals_mismatch : ty (VNum 1) <> ty (VStr []) /\ gen_eq TFunc TFunc = Some QFuncErr.
Proof. split; [discriminate | reflexivity]. Qed.
Example ex_compare : gen_cmp TArr TArr = Some (Some KArr) /\ gen_cmp TBool TBool = Some None.
Proof. split; reflexivity. Qed.
