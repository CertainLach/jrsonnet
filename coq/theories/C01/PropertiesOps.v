(** C01 — property theorems on the operator dispatch (evaluate/operator.rs, val.rs equals), translated
    on every run (Gen/GenOps.v): it is the dispatch of Sem.  The two halves are in ProofsOps.v. *)
From Coq Require Import List ZArith NArith Bool.
From JrV Require Import Sem.Syntax Sem.Interp Common.OpClass Gen.GenOps C01.ModelOps C01.ProofsOps.
Import ListNotations.

(** the translated table = the table of the arms Sem takes (19 operators x 7 x 7 variants x 8 guard facts) *)
Theorem C01_optable_actions_table :
  forallb (fun o => forallb (fun ta => forallb (fun tb => forallb (fun f =>
    implb (flags_consistent ta tb f)
          (opt_fclass_beq (gen_class o ta tb f) (Some (spec_class o ta tb f))))
    all_flags) all_vty) all_vty) all_binop = true.
Proof. exact optable_table. Qed.
Print Assumptions C01_optable_actions_table.

(** for all operands, fuels and stores: binop_val computes what the class in the table means *)
Theorem C01_optable_actions :
  forall n o a b s, o <> BAnd -> o <> BOr ->
    exists c, gen_class o (ty a) (ty b) (flags_of a b) = Some c /\
              c = spec_class o (ty a) (ty b) (flags_of a b) /\
              binop_val (S (S n)) o a b s = class_sem c n a b s.
Proof.
  intros n o a b s H1 H2. eexists. split; [apply gen_is_spec_val|]. split; [reflexivity|].
  apply spec_correct. destruct o; try reflexivity; congruence.
Qed.
Print Assumptions C01_optable_actions.

(** `type error` in the table => Sem fails with KType, store untouched; an action decided at the dispatch => no KType *)
Theorem C01_optable_type_errors :
  forall n o a b s, o <> BAnd -> o <> BOr ->
    (gen_class o (ty a) (ty b) (flags_of a b) = Some CTypeError ->
     binop_val (S (S n)) o a b s = (Err KType, s))
    /\
    (forall c, gen_class o (ty a) (ty b) (flags_of a b) = Some c -> c <> CTypeError ->
               dispatch_level c a b = true ->
               fst (binop_val (S (S n)) o a b s) <> Err KType).
Proof.
  intros n o a b s H1 H2.
  assert (Hl : lazy_op o = false) by (destruct o; try reflexivity; congruence).
  rewrite gen_is_spec_val, (spec_correct n o a b s Hl). split.
  - intro E. injection E as E. rewrite E. reflexivity.
  - intros c E. injection E as <-. now apply spec_not_ktype.
Qed.
Print Assumptions C01_optable_type_errors.

(** `string concat` stands in the table exactly where Sem evaluates `+` on two strings *)
Theorem C01_optable_strconcat_iff :
  forall o a b,
    gen_class o (ty a) (ty b) (flags_of a b) = Some CStrConcat <->
    o = BAdd /\ exists x y, a = VStr x /\ b = VStr y.
Proof.
  intros o a b. rewrite gen_is_spec_val. split.
  - intro H. injection H as H. apply strconcat_divzero_cells in H as T.
    destruct o; try discriminate T. destruct a; try discriminate T. destruct b; try discriminate T.
    eauto.
  - intros [-> (x & y & -> & ->)]. reflexivity.
Qed.
Print Assumptions C01_optable_strconcat_iff.

(** `division-by-zero test first` stands exactly at / and % with divisor 0 and a non-string dividend *)
Theorem C01_optable_divzero_iff :
  forall o a b,
    gen_class o (ty a) (ty b) (flags_of a b) = Some CDivZero <->
    (o = BDiv \/ o = BMod) /\ b = VNum 0 /\ ty a <> TStr.
Proof.
  intros o a b. rewrite gen_is_spec_val. split.
  - intro H. injection H as H. apply strconcat_divzero_cells in H as T.
    destruct o; try discriminate T.
    all: destruct b as [| |[| |]| | | |]; try discriminate T.
    all: destruct a; try discriminate T.
    all: repeat split; auto; discriminate.
  - intros [[-> | ->] [-> Ht]]; destruct a; try reflexivity; exfalso; apply Ht; reflexivity.
Qed.
Print Assumptions C01_optable_divzero_iff.

(** and there Sem reports the runtime error before anything else *)
Theorem C01_optable_divzero_first :
  forall n o x s, o = BDiv \/ o = BMod ->
    gen_class o TNum TNum (flags_of (VNum x) (VNum 0)) = Some CDivZero /\
    binop_val (S (S n)) o (VNum x) (VNum 0) s = (Err KRuntime, s).
Proof. intros n o x s [-> | ->]; split; reflexivity. Qed.
Print Assumptions C01_optable_divzero_first.

(** `str % x` (and any operator with a string on the left) is never a division by zero *)
Theorem C01_optable_str_mod_never_divzero :
  forall o sa b, gen_class o TStr (ty b) (flags_of (VStr sa) b) <> Some CDivZero.
Proof.
  intros o sa b H. apply (C01_optable_divzero_iff o (VStr sa) b) in H.
  destruct H as (_ & _ & H). apply H. reflexivity.
Qed.
Print Assumptions C01_optable_str_mod_never_divzero.

(** unary operators: 4 operators x 7 variants *)
Theorem C01_optable_unary_table :
  forallb (fun o => forallb (fun t =>
    match gen_uclass o t with Some c => uaction_beq c (spec_uclass o t) | None => false end)
    all_vty) all_unop = true.
Proof. exact unary_table. Qed.
Print Assumptions C01_optable_unary_table.

(** Sem's EUn case is the reading of the translated unary table *)
Theorem C01_optable_unary :
  forall n ev oc o e s,
    eval (S n) ev oc (EUn o e) s =
    match eval n ev oc e s with
    | (Ok v, s') =>
        match gen_uclass o (ty v) with
        | Some c => uclass_sem c v s'
        | None => (Err KType, s')
        end
    | (Err k, s') => (Err k, s')
    end.
Proof.
  intros n ev oc o e s.
  rewrite unary_spec. destruct (eval n ev oc e s) as [[v|k] s']; [|reflexivity].
  rewrite gen_uclass_is_spec. reflexivity.
Qed.
Print Assumptions C01_optable_unary.

(** unary type errors: exactly where the table says so *)
Theorem C01_optable_unary_type_errors :
  forall n ev oc o e s v s',
    eval n ev oc e s = (Ok v, s') ->
    (gen_uclass o (ty v) = Some UaTypeError <-> eval (S n) ev oc (EUn o e) s = (Err KType, s')).
Proof.
  intros n ev oc o e s v s' H. rewrite C01_optable_unary, H, gen_uclass_is_spec. split.
  - intro E. injection E as E. rewrite E. destruct v; reflexivity.
  - destruct o, v; try reflexivity; cbn; unfold retnum, num, ret, fail;
      repeat match goal with |- context [if ?c then _ else _] => destruct c end; discriminate.
Qed.
Print Assumptions C01_optable_unary_type_errors.

(** && and ||: Sem's EBin BAnd / BOr cases read evaluate_binary_op_special, then the strict table *)
Theorem C01_optable_short_circuit :
  forall n ev oc o a b s, o = BAnd \/ o = BOr ->
    eval (S n) ev oc (EBin o a b) s =
    match eval n ev oc a s with
    | (Err k, s1) => (Err k, s1)
    | (Ok va, s1) =>
        match gen_special o va with
        | Some (SShort r) => (Ok (VBool r), s1)
        | Some SNormal =>
            match eval n ev oc b s1 with
            | (Err k, s2) => (Err k, s2)
            | (Ok vb, s2) =>
                match gen_class o (ty va) (ty vb) (flags_of va vb) with
                | Some c => class_sem c n va vb s2
                | None => (Err KType, s2)
                end
            end
        | None => (Err KType, s1)
        end
    end.
Proof.
  intros n ev oc o a b s H. rewrite special_spec by (destruct H as [-> | ->]; reflexivity).
  destruct (eval n ev oc a s) as [[va|k] s1]; [|reflexivity].
  rewrite gen_special_is_spec. destruct (spec_special o va); [reflexivity|].
  destruct (eval n ev oc b s1) as [[vb|k] s2]; [|reflexivity].
  rewrite gen_is_spec_val. reflexivity.
Qed.
Print Assumptions C01_optable_short_circuit.

(** the right operand is not evaluated when the left decides: result, store and trace log are those after the left operand *)
Theorem C01_short_circuit_skips_right :
  forall n ev oc o a b s r s1,
    (o = BAnd /\ r = false) \/ (o = BOr /\ r = true) ->
    eval n ev oc a s = (Ok (VBool r), s1) ->
    gen_special o (VBool r) = Some (SShort r) /\
    eval (S n) ev oc (EBin o a b) s = (Ok (VBool r), s1).
Proof.
  intros n ev oc o a b s r s1 H E.
  rewrite C01_optable_short_circuit, E, gen_special_is_spec by (destruct H as [[-> _] | [-> _]]; auto).
  destruct H as [[-> ->] | [-> ->]]; split; reflexivity.
Qed.
Print Assumptions C01_short_circuit_skips_right.

(** a non-boolean left operand of && / || is a type error (after the right operand has been evaluated) *)
Theorem C01_short_circuit_nonbool_left :
  forall n ev oc o a b s va s1 vb s2,
    o = BAnd \/ o = BOr ->
    eval n ev oc a s = (Ok va, s1) -> ty va <> TBool ->
    eval n ev oc b s1 = (Ok vb, s2) ->
    gen_special o va = Some SNormal /\
    gen_class o (ty va) (ty vb) (flags_of va vb) = Some CTypeError /\
    eval (S n) ev oc (EBin o a b) s = (Err KType, s2).
Proof.
  intros n ev oc o a b s va s1 vb s2 H Ea Ht Eb. rewrite C01_optable_short_circuit, Ea by exact H.
  rewrite gen_special_is_spec, gen_is_spec_val.
  destruct H as [-> | ->], va; try (elim Ht; reflexivity).
  all: rewrite Eb; repeat split; reflexivity.
Qed.
Print Assumptions C01_short_circuit_nonbool_left.

(** equals / primitive_equals: Sem's equals takes the arm the translated type dispatch names *)
Theorem C01_optable_equals :
  forall n a b s,
    exists k, gen_eq (ty a) (ty b) = Some k /\ equals (S n) a b s = eq_sem k n a b s.
Proof. intros n a b s. eexists. split; [apply gen_eq_is_spec | apply equals_spec]. Qed.
Print Assumptions C01_optable_equals.

(** operands of different variants are unequal without looking inside *)
Theorem C01_optable_equals_type_mismatch :
  forall n a b s,
    ty a <> ty b -> gen_eq (ty a) (ty b) = Some QFalse /\ equals (S n) a b s = (Ok false, s).
Proof.
  intros n a b s H. rewrite gen_eq_is_spec, equals_spec.
  destruct a, b; try (exfalso; apply H; reflexivity); split; reflexivity.
Qed.
Print Assumptions C01_optable_equals_type_mismatch.

(** evaluate_compare_op: numbers, strings, arrays; everything else a type error *)
Theorem C01_optable_compare :
  forall n a b s,
    match gen_cmp (ty a) (ty b) with
    | Some (Some k) => compare_val (S n) a b s = cmp_sem k n a b s
    | Some None => compare_val (S n) a b s = (Err KType, s)
    | None => False
    end.
Proof.
  intros n a b s. rewrite compare_spec. pose proof (gen_cmp_is_spec (ty a) (ty b)) as H.
  destruct (gen_cmp (ty a) (ty b)) as [[k|]|]; [| |discriminate H].
  all: injection H as <-; reflexivity.
Qed.
Print Assumptions C01_optable_compare.

