(** C01: lemmas on the scope chain and the argument binder, for Properties.v. *)
From Coq Require Import List NArith Bool Arith Lia Permutation.
From JrV Require Import C01.Model.
Import ListNotations.

Lemma hget_app {V} (k : name) (a b : hmap V) :
  hget k (a ++ b) = match hget k a with Some v => Some v | None => hget k b end.
Proof.
  induction a as [|[k' v] a IH]; cbn [app hget]; [reflexivity|].
  destruct (N.eqb k k'); [reflexivity|exact IH].
Qed.

Lemma scope_shadow {V} (l : layered V) (cur : hmap V) k v :
  hget k cur = Some v -> lget k (Extend l cur) = Some v.
Proof. intros H. cbn [lget]. rewrite H. reflexivity. Qed.

Lemma scope_inherit {V} (l : layered V) (cur : hmap V) k :
  hget k cur = None -> lget k (Extend l cur) = lget k l.
Proof. intros H. cbn [lget]. rewrite H. reflexivity. Qed.

Lemma aget_aremove k n m : aget n (aremove k m) = if N.eqb n k then None else aget n m.
Proof.
  induction m as [|[k' v] m IH]; cbn [aremove aget].
  - destruct (N.eqb n k); reflexivity.
  - destruct (N.eqb_spec k k') as [->|Hk].
    + rewrite IH. destruct (N.eqb_spec n k'); reflexivity.
    + cbn [aget]. rewrite IH. destruct (N.eqb_spec n k') as [->|Hn].
      * destruct (N.eqb_spec k' k); [congruence|reflexivity].
      * reflexivity.
Qed.

Lemma aget_ainsert k v n m :
  aget n (fst (ainsert k v m)) = if N.eqb n k then Some v else aget n m.
Proof.
  unfold ainsert. cbn [fst aget]. destruct (N.eqb_spec n k) as [->|H]; [reflexivity|].
  rewrite aget_aremove. destruct (N.eqb_spec n k); [contradiction|reflexivity].
Qed.

Lemma aget_app n a b : aget n (a ++ b) = match aget n a with Some v => Some v | None => aget n b end.
Proof.
  induction a as [|[k v] a IH]; cbn [app aget]; [reflexivity|].
  destruct (N.eqb n k); [reflexivity|exact IH].
Qed.

Lemma index_of_shift n l i :
  index_of n l (S i) = option_map S (index_of n l i).
Proof.
  revert i. induction l as [|x t IH]; intros i; cbn [index_of]; [reflexivity|].
  destruct (N.eqb n x); [reflexivity|apply IH].
Qed.

Lemma index_of_none n l i : index_of n l i = None <-> ~ In n l.
Proof.
  revert i. induction l as [|x t IH]; intros i; cbn [index_of In]; [tauto|].
  destruct (N.eqb_spec n x) as [->|H].
  - split; [discriminate|]. intros Hn. exfalso. apply Hn. left. reflexivity.
  - rewrite IH. split; [intros Hn [E|I]; [congruence|contradiction] | tauto].
Qed.

Lemma index_of_some n l i j : index_of n l i = Some j -> i <= j /\ nth_error l (j - i) = Some n.
Proof.
  revert i. induction l as [|x t IH]; intros i; cbn [index_of]; [discriminate|].
  destruct (N.eqb_spec n x) as [->|H].
  - intros E. injection E as <-. rewrite Nat.sub_diag. split; [lia|reflexivity].
  - intros E. apply IH in E. destruct E as [Hle Hn]. split; [lia|].
    replace (j - i) with (S (j - S i)) by lia. exact Hn.
Qed.

Lemma firstn_In' {A} (l : list A) : forall n x, In x (firstn n l) -> In x l.
Proof. intros n x H. rewrite <- (firstn_skipn n l). apply in_or_app. left. exact H. Qed.

Lemma nth_error_skipn {A} (l : list A) : forall n i,
  nth_error (skipn n l) i = nth_error l (n + i).
Proof.
  induction l as [|x xs IH]; intros n i.
  - rewrite skipn_nil. destruct i, (n + _); reflexivity.
  - destruct n as [|n']; [reflexivity|]. cbn [skipn]. rewrite IH. reflexivity.
Qed.

Lemma nth_error_firstn_lt {A} (l : list A) : forall n i,
  i < n -> nth_error (firstn n l) i = nth_error l i.
Proof.
  induction l as [|x xs IH]; intros n i Hi.
  - rewrite firstn_nil. reflexivity.
  - destruct n as [|n']; [lia|]. cbn [firstn]. destruct i as [|i']; [reflexivity|].
    cbn [nth_error]. apply IH. lia.
Qed.

Lemma nth_error_fst (ps : params) i n d :
  nth_error ps i = Some (n, d) -> nth_error (map fst ps) i = Some n.
Proof. intros H. rewrite nth_error_map, H. reflexivity. Qed.

Lemma bind_pos_get ps : forall i u m n,
  NoDup (map fst ps) ->
  aget n (bind_pos ps i u m) =
  match index_of n (firstn u (map fst ps)) 0 with
  | Some j => Some (SArg (i + j))
  | None => aget n m
  end.
Proof.
  induction ps as [|[p d] ps IH]; intros i u m n Hnd.
  - destruct u; reflexivity.
  - destruct u as [|u']; [reflexivity|].
    cbn [bind_pos map fst firstn index_of]. inversion Hnd as [|? ? Hnotin Hnd']; subst.
    rewrite IH by assumption.
    destruct (N.eqb_spec n p) as [->|Hnp].
    + assert (Hnone : index_of p (firstn u' (map fst ps)) 0 = None).
      { apply index_of_none. intros Hin. apply Hnotin. eapply firstn_In'. exact Hin. }
      rewrite Hnone, aget_ainsert, N.eqb_refl. f_equal. f_equal. lia.
    + rewrite index_of_shift. destruct (index_of n (firstn u' (map fst ps)) 0) as [j|].
      * cbn [option_map]. f_equal. f_equal. lia.
      * cbn [option_map]. rewrite aget_ainsert.
        destruct (N.eqb_spec n p); [contradiction|reflexivity].
Qed.

Definition known (ps : params) (n : name) : bool := existsb (fun p => N.eqb (fst p) n) ps.

Lemma known_in ps n : known ps n = true <-> In n (map fst ps).
Proof.
  unfold known. rewrite existsb_exists. split.
  - intros [[p d] [Hin He]]. cbn in He. apply N.eqb_eq in He. subst. apply in_map_iff. exists (n, d). auto.
  - intros Hin. apply in_map_iff in Hin. destruct Hin as [[p d] [E Hin]]. cbn in E. subst.
    exists (n, d). split; [exact Hin|]. cbn. apply N.eqb_refl.
Qed.

Lemma bind_named_ok ps : forall named i m,
  (forall n, In n named -> In n (map fst ps)) ->
  NoDup named ->
  (forall n, In n named -> aget n m = None) ->
  exists m', bind_named ps named i m = inl m' /\
    forall n, aget n m' = match index_of n named 0 with
                          | Some j => Some (SArg (i + j))
                          | None => aget n m
                          end.
Proof.
  induction named as [|x t IH]; intros i m Hk Hnd Hfree.
  - exists m. split; reflexivity.
  - cbn [bind_named]. fold (known ps x).
    assert (Hkx : known ps x = true) by (apply known_in, Hk; left; reflexivity).
    rewrite Hkx. cbn [negb]. unfold ainsert at 1.
    rewrite (Hfree x (or_introl eq_refl)).
    inversion Hnd as [|? ? Hxt Hnd']; subst.
    destruct (IH (S i) ((x, SArg i) :: aremove x m)) as (m' & Hm' & Hget).
    + intros n Hn. apply Hk. right. exact Hn.
    + exact Hnd'.
    + intros n Hn. cbn [aget]. destruct (N.eqb_spec n x) as [->|Hne]; [contradiction|].
      rewrite aget_aremove. destruct (N.eqb_spec n x); [contradiction|].
      apply Hfree. right. exact Hn.
    + exists m'. split; [exact Hm'|]. intros n. rewrite Hget. cbn [index_of].
      destruct (N.eqb_spec n x) as [->|Hne].
      * assert (Hnone : index_of x t 0 = None) by (apply index_of_none; exact Hxt).
        rewrite Hnone. cbn [aget]. rewrite N.eqb_refl.
        f_equal. f_equal. lia.
      * rewrite index_of_shift. destruct (index_of n t 0) as [j|]; cbn [option_map].
        -- f_equal. f_equal. lia.
        -- cbn [aget]. destruct (N.eqb_spec n x); [contradiction|].
           rewrite aget_aremove. destruct (N.eqb_spec n x); [contradiction|reflexivity].
Qed.

Lemma bind_named_inv ps : forall named i m m',
  bind_named ps named i m = inl m' ->
  (forall n, In n named -> In n (map fst ps)) /\ NoDup named /\
  (forall n, In n named -> aget n m = None).
Proof.
  induction named as [|x t IH]; intros i m m' H.
  - split; [intros n []|]. split; [constructor|intros n []].
  - cbn [bind_named] in H. fold (known ps x) in H.
    destruct (known ps x) eqn:Hk; cbn [negb] in H; [|discriminate].
    unfold ainsert in H. destruct (aget x m) eqn:Hx; [discriminate|].
    apply IH in H. destruct H as (Hkn & Hnd & Hfree).
    assert (Hxt : ~ In x t).
    { intros Hin. specialize (Hfree x Hin). cbn [aget] in Hfree. rewrite N.eqb_refl in Hfree. discriminate. }
    split; [|split].
    + intros n [<-|Hn]; [apply known_in; exact Hk|apply Hkn; exact Hn].
    + constructor; assumption.
    + intros n [E|Hn]; [subst n; exact Hx|].
      specialize (Hfree n Hn). cbn [aget] in Hfree.
      destruct (N.eqb_spec n x) as [E|Hne]; [subst n; contradiction|].
      rewrite aget_aremove in Hfree. destruct (N.eqb_spec n x); [contradiction|exact Hfree].
Qed.

Definition bound (passed : amap) (n : name) : bool :=
  match aget n passed with Some _ => true | None => false end.

Lemma bind_defaults_spec ps : forall idx passed,
  NoDup (map fst ps) ->
  let (defs, c) := bind_defaults ps idx passed in
  c = length (filter (fun p => snd p && negb (bound passed (fst p))) ps) /\
  forall n, aget n defs =
    match index_of n (map fst ps) 0 with
    | Some j => match nth_error ps j with
                | Some (_, true) => if bound passed n then None else Some (SDefault (idx + j))
                | _ => None
                end
    | None => None
    end.
Proof.
  induction ps as [|[p d] ps IH]; intros idx passed Hnd.
  - cbn. split; [reflexivity|]. intros n. reflexivity.
  - cbn [bind_defaults]. inversion Hnd as [|? ? Hnotin Hnd']; subst.
    specialize (IH (S idx) passed Hnd').
    destruct (bind_defaults ps (S idx) passed) as [m c]. destruct IH as [Hc Hget].
    assert (Hstep : forall n, n <> p ->
      match index_of n (map fst ((p, d) :: ps)) 0 with
      | Some j => match nth_error ((p, d) :: ps) j with
                  | Some (_, true) => if bound passed n then None else Some (SDefault (idx + j))
                  | _ => None
                  end
      | None => None
      end = aget n m).
    { intros n Hne. cbn [map fst index_of]. destruct (N.eqb_spec n p); [contradiction|].
      rewrite index_of_shift, Hget. destruct (index_of n (map fst ps) 0) as [j|]; cbn [option_map]; [|reflexivity].
      cbn [nth_error]. destruct (nth_error ps j) as [[q [|]]|]; try reflexivity.
      destruct (bound passed n); [reflexivity|]. f_equal. f_equal. lia. }
    assert (Hp : aget p m = None).
    { rewrite Hget, (proj2 (index_of_none p (map fst ps) 0) Hnotin). reflexivity. }
    unfold bound at 1. cbn [filter snd fst].
    destruct d; cbn [andb].
    + unfold bound at 1 in Hc. unfold bound at 1. destruct (aget p passed) eqn:Hpp; cbn [negb].
      * split; [exact Hc|]. intros n. destruct (N.eqb_spec n p) as [->|Hne].
        -- rewrite Hp. cbn [map fst index_of]. rewrite N.eqb_refl. cbn [nth_error].
           unfold bound. rewrite Hpp. reflexivity.
        -- symmetry. apply Hstep. exact Hne.
      * cbn [length]. split; [f_equal; exact Hc|]. intros n. cbn [aget].
        destruct (N.eqb_spec n p) as [->|Hne].
        -- cbn [map fst index_of]. rewrite N.eqb_refl. cbn [nth_error]. unfold bound. rewrite Hpp.
           f_equal. f_equal. lia.
        -- symmetry. apply Hstep. exact Hne.
    + split; [exact Hc|]. intros n. destruct (N.eqb_spec n p) as [->|Hne].
      * rewrite Hp. cbn [map fst index_of]. rewrite N.eqb_refl. reflexivity.
      * symmetry. apply Hstep. exact Hne.
Qed.

Lemma filter_partition3 {A} (f g : A -> bool) (l : list A) :
  length l = length (filter f l)
           + length (filter (fun x => negb (f x) && g x) l)
           + length (filter (fun x => negb (f x) && negb (g x)) l).
Proof.
  induction l as [|x t IH]; [reflexivity|]. cbn [filter length].
  destruct (f x), (g x); cbn [negb andb length]; lia.
Qed.

Fixpoint memb (n : name) (l : list name) : bool :=
  match l with [] => false | x :: t => N.eqb n x || memb n t end.
Lemma memb_in n l : memb n l = true <-> In n l.
Proof.
  induction l as [|x t IH]; cbn [memb In]; [split; [discriminate|tauto]|].
  rewrite orb_true_iff, IH, N.eqb_eq. split; intros [H|H]; auto.
Qed.

Lemma count_members (names L : list name) :
  NoDup names -> NoDup L -> incl L names ->
  length (filter (fun n => memb n L) names) = length L.
Proof.
  intros Hn HL Hincl. apply Permutation_length. apply NoDup_Permutation.
  - apply NoDup_filter. exact Hn.
  - exact HL.
  - intros x. rewrite filter_In, memb_in. split; [tauto|]. intros H. split; [apply Hincl; exact H|exact H].
Qed.

Lemma filter_map_fst (f : name -> bool) (ps : params) :
  length (filter (fun p => f (fst p)) ps) = length (filter f (map fst ps)).
Proof.
  induction ps as [|[n d] t IH]; [reflexivity|]. cbn [filter map fst].
  destruct (f n); cbn [length]; rewrite IH; reflexivity.
Qed.

Lemma index_of_some_iff n l : (exists j, index_of n l 0 = Some j) <-> In n l.
Proof.
  destruct (index_of n l 0) as [j|] eqn:E.
  - split; [intros _|eauto]. apply index_of_some in E as [_ E]. exact (nth_error_In _ _ E).
  - apply index_of_none in E. split; [intros [j H]; discriminate|contradiction].
Qed.

Lemma index_of_nth (l : list name) : forall i n, NoDup l -> nth_error l i = Some n -> index_of n l 0 = Some i.
Proof.
  induction l as [|x t IH]; intros i n Hnd Hn; [destruct i; discriminate|].
  inversion Hnd as [|? ? Hx Hnd']; subst. destruct i as [|i'].
  - cbn in Hn. injection Hn as ->. cbn [index_of]. rewrite N.eqb_refl. reflexivity.
  - cbn [nth_error] in Hn. cbn [index_of]. destruct (N.eqb_spec n x) as [->|Hne].
    + exfalso. apply Hx. eapply nth_error_In. exact Hn.
    + rewrite index_of_shift, (IH i' n Hnd' Hn). reflexivity.
Qed.

Lemma index_of_firstn (l : list name) u n j :
  index_of n (firstn u l) 0 = Some j -> index_of n l 0 = Some j /\ j < u.
Proof.
  revert u j. induction l as [|x t IH]; intros u j H.
  - rewrite firstn_nil in H. discriminate.
  - destruct u as [|u']; [discriminate|]. cbn [firstn index_of] in *.
    destruct (N.eqb n x); [injection H as <-; split; [reflexivity|lia]|].
    rewrite index_of_shift in *. destruct (index_of n (firstn u' t) 0) as [k|] eqn:E; [|discriminate].
    cbn [option_map] in H. injection H as <-. destruct (IH u' k E) as [E' Hk]. rewrite E'. split; [reflexivity|lia].
Qed.

Lemma NoDup_app_iff {A} (a b : list A) :
  NoDup (a ++ b) <-> NoDup a /\ NoDup b /\ (forall x, In x a -> In x b -> False).
Proof.
  induction a as [|y a IH]; cbn [app].
  - split; [intros H; repeat split; [constructor|exact H|intros x []] | intros (_ & H & _); exact H].
  - split.
    + intros H. inversion H as [|? ? Hy Hr]; subst. apply IH in Hr as (Ha & Hb & Hd).
      split; [constructor; [intros Hin; apply Hy, in_or_app; left; exact Hin|exact Ha]|].
      split; [exact Hb|].
      intros x [<-|Hx] Hxb; [apply Hy, in_or_app; right; exact Hxb|eauto].
    + intros (Ha & Hb & Hd). inversion Ha as [|? ? Hy Hr]; subst. constructor.
      * intros Hin. apply in_app_or in Hin as [H|H]; [contradiction|].
        apply (Hd y); [left; reflexivity|exact H].
      * apply IH. split; [exact Hr|]. split; [exact Hb|].
        intros x Hx. apply Hd. right. exact Hx.
Qed.
Lemma NoDup_app_l {A} (a b : list A) : NoDup (a ++ b) -> NoDup a.
Proof. intros H. apply NoDup_app_iff in H. apply H. Qed.

Lemma index_of_firstn_nth (l : list name) u i n :
  NoDup l -> nth_error l i = Some n ->
  index_of n (firstn u l) 0 = if Nat.ltb i u then Some i else None.
Proof.
  intros Hnd Hn. pose proof (index_of_nth l i n Hnd Hn) as Hi.
  destruct (index_of n (firstn u l) 0) as [j|] eqn:E.
  - apply index_of_firstn in E as [E Hj]. rewrite Hi in E. injection E as ->.
    apply Nat.ltb_lt in Hj. rewrite Hj. reflexivity.
  - destruct (Nat.ltb_spec i u) as [Hlt|]; [|reflexivity].
    apply index_of_none in E. elim E. apply (nth_error_In _ i).
    rewrite nth_error_firstn_lt by exact Hlt. exact Hn.
Qed.

Lemma filter_nil_iff {A} (f : A -> bool) l : filter f l = [] <-> forall x, In x l -> f x = false.
Proof.
  induction l as [|x t IH]; cbn [filter]; [split; [intros _ y []|reflexivity]|].
  destruct (f x) eqn:E.
  - split; [discriminate|]. intros H. specialize (H x (or_introl eq_refl)). congruence.
  - rewrite IH. split; [intros H y [<-|Hy]; auto|intros H y Hy; apply H; right; exact Hy].
Qed.

Lemma NoDup_firstn {A} (l : list A) u : NoDup l -> NoDup (firstn u l).
Proof. intros H. rewrite <- (firstn_skipn u l) in H. exact (NoDup_app_l _ _ H). Qed.

Lemma passed_spec ps u named :
  NoDup (map fst ps) ->
  (forall n, In n named -> In n (map fst ps)) -> NoDup (firstn u (map fst ps) ++ named) ->
  exists passed, bind_named ps named u (bind_pos ps 0 u []) = inl passed /\
    (forall n, aget n passed = match index_of n (firstn u (map fst ps)) 0 with
                               | Some j => Some (SArg j)
                               | None => match index_of n named 0 with
                                         | Some j => Some (SArg (u + j))
                                         | None => None
                                         end
                               end).
Proof.
  intros Hnd Hk Hdis.
  destruct (proj1 (NoDup_app_iff _ _) Hdis) as (_ & HndN & Hdisj).
  assert (Hfree : forall n, In n named -> aget n (bind_pos ps 0 u []) = None).
  { intros n Hn. rewrite bind_pos_get by assumption.
    rewrite (proj2 (index_of_none n (firstn u (map fst ps)) 0)); [reflexivity|].
    intros HP. eapply Hdisj; eauto. }
  destruct (bind_named_ok ps named u _ Hk HndN Hfree) as (passed & Hb & Hget).
  exists passed. split; [exact Hb|].
  intros n. rewrite Hget, bind_pos_get by assumption.
  destruct (index_of n (firstn u (map fst ps)) 0) as [j|] eqn:EP; [|reflexivity].
  rewrite (proj2 (index_of_none n named 0)); [reflexivity|].
  intros Hn. assert (HP : In n (firstn u (map fst ps))) by (apply index_of_some_iff; eauto).
  eapply Hdisj; eauto.
Qed.

(** [Hget] is the conclusion of [passed_spec].  Every parameter is passed, defaulted, or neither
    ([partition_eq]); [bind_impl]'s test `named.len() + defaults + u == params.len()` says that the
    third class is empty ([all_specified_iff]). *)
Section Passed.
  Variable ps : params.
  Variable u : nat.
  Variable named : list name.
  Hypothesis Hnd : NoDup (map fst ps).
  Hypothesis Hu : u <= length ps.
  Hypothesis Hk : forall n, In n named -> In n (map fst ps).
  Hypothesis Hdis : NoDup (firstn u (map fst ps) ++ named).
  Variable passed : amap.
  Hypothesis Hget : forall n, aget n passed =
     match index_of n (firstn u (map fst ps)) 0 with
     | Some j => Some (SArg j)
     | None => match index_of n named 0 with Some j => Some (SArg (u + j)) | None => None end
     end.

  Lemma bound_memb n : bound passed n = memb n (firstn u (map fst ps) ++ named).
  Proof.
    unfold bound. rewrite Hget.
    destruct (memb n (firstn u (map fst ps) ++ named)) eqn:Em.
    - apply memb_in, in_app_or in Em. destruct Em as [HP|HN].
      + apply index_of_some_iff in HP as [j ->]. reflexivity.
      + apply index_of_some_iff in HN as [j ->].
        destruct (index_of n (firstn u (map fst ps)) 0); reflexivity.
    - assert (Hnot : ~ In n (firstn u (map fst ps) ++ named)) by (rewrite <- memb_in; congruence).
      rewrite !(proj2 (index_of_none n _ 0)); [reflexivity| |].
      + intros H. apply Hnot, in_or_app. right. exact H.
      + intros H. apply Hnot, in_or_app. left. exact H.
  Qed.

  Lemma bound_count :
    length (filter (fun p => bound passed (fst p)) ps) = u + length named.
  Proof.
    rewrite (filter_map_fst (bound passed)).
    rewrite (filter_ext _ (fun n => memb n (firstn u (map fst ps) ++ named)) bound_memb).
    rewrite count_members; try assumption.
    - rewrite app_length, firstn_length, map_length. lia.
    - intros x Hx. apply in_app_or in Hx. destruct Hx as [H|H]; [eapply firstn_In'; exact H|apply Hk; exact H].
  Qed.

  Lemma spec_src_bound i n d :
    nth_error ps i = Some (n, d) ->
    spec_src ps u named i =
      if bound passed n then aget n passed else if d then Some (SDefault i) else None.
  Proof.
    intros Hi. unfold spec_src. rewrite Hi.
    pose proof (nth_error_fst _ _ _ _ Hi) as Hn.
    pose proof (index_of_firstn_nth (map fst ps) u i n Hnd Hn) as HP.
    unfold bound. rewrite Hget, HP. destruct (Nat.ltb i u); [reflexivity|].
    destruct (index_of n named 0); reflexivity.
  Qed.

  Lemma partition_eq :
    length ps = (u + length named)
              + length (filter (fun p => snd p && negb (bound passed (fst p))) ps)
              + length (filter (fun p => negb (bound passed (fst p)) && negb (snd p)) ps).
  Proof.
    rewrite (filter_partition3 (fun p => bound passed (fst p)) (fun p => snd p) ps), bound_count.
    f_equal. f_equal. f_equal. apply filter_ext. intros x. apply andb_comm.
  Qed.

  Lemma all_specified_iff :
    filter (fun p => negb (bound passed (fst p)) && negb (snd p)) ps = [] <->
    (forall i, i < length ps -> spec_src ps u named i <> None).
  Proof.
    rewrite filter_nil_iff. split.
    - intros H i Hi. destruct (nth_error ps i) as [[n d]|] eqn:E; [|apply nth_error_Some in Hi; contradiction].
      rewrite (spec_src_bound i n d E). specialize (H (n, d) (nth_error_In _ _ E)). cbn [fst snd] in H.
      destruct (bound passed n) eqn:B.
      + unfold bound in B. destruct (aget n passed); [discriminate|discriminate].
      + destruct d; [discriminate|discriminate].
    - intros H [n d] Hin. cbn [fst snd]. apply In_nth_error in Hin. destruct Hin as [i Hi].
      assert (Hlt : i < length ps) by (apply nth_error_Some; congruence).
      specialize (H i Hlt). rewrite (spec_src_bound i n d Hi) in H.
      destruct (bound passed n); [reflexivity|]. destruct d; [reflexivity|contradiction].
  Qed.
End Passed.

(** the slice [k, u) of a list *)
Lemma In_slice {A} (l : list A) k u x :
  In x (firstn (u - k) (skipn k l)) <-> exists i, k <= i < u /\ nth_error l i = Some x.
Proof.
  split.
  - intros H. apply In_nth_error in H as [j Hj].
    assert (Hlt : j < u - k).
    { pose proof (firstn_le_length (u - k) (skipn k l)).
      assert (j < length (firstn (u - k) (skipn k l))) by (apply nth_error_Some; congruence). lia. }
    rewrite nth_error_firstn_lt, nth_error_skipn in Hj by exact Hlt.
    exists (k + j). split; [lia|exact Hj].
  - intros (i & Hi & Hx). apply (nth_error_In _ (i - k)).
    rewrite nth_error_firstn_lt, nth_error_skipn by lia.
    replace (k + (i - k)) with i by lia. exact Hx.
Qed.

Lemma firstn_slice {A} (l : list A) k u :
  k <= u -> firstn k l ++ firstn (u - k) (skipn k l) = firstn u l.
Proof.
  intros H. rewrite <- (firstn_skipn k (firstn u l)) at 1. f_equal.
  - rewrite firstn_firstn. f_equal. lia.
  - symmetry. apply skipn_firstn_comm.
Qed.

Lemma spec_src_pos ps u named i n d :
  nth_error ps i = Some (n, d) -> i < u -> spec_src ps u named i = Some (SArg i).
Proof.
  intros Hi H. unfold spec_src. rewrite Hi.
  destruct (Nat.ltb_spec i u); [reflexivity|lia].
Qed.

Lemma spec_src_rest ps u named i n d :
  nth_error ps i = Some (n, d) -> u <= i ->
  spec_src ps u named i = match index_of n named 0 with
                          | Some j => Some (SArg (u + j))
                          | None => if d then Some (SDefault i) else None
                          end.
Proof.
  intros Hi H. unfold spec_src. rewrite Hi.
  destruct (Nat.ltb_spec i u); [lia|reflexivity].
Qed.

(** the arguments at positions [k, u) are passed by name instead, in any order [perm] *)
Section CallStyle.
  Variable ps : params.
  Variables u k : nat.
  Variable perm : list name.
  Hypothesis Hnd : NoDup (map fst ps).
  Hypothesis Hk : k <= u.
  Hypothesis Hperm : Permutation perm (firstn (u - k) (skipn k (map fst ps))).

  Lemma named_iff_slice i n d :
    nth_error ps i = Some (n, d) -> In n perm <-> k <= i < u.
  Proof.
    intros Hi.
    pose proof (nth_error_fst _ _ _ _ Hi) as Hn.
    split.
    - intros H. apply (Permutation_in _ Hperm), In_slice in H as (j & Hj & Hn').
      replace i with j; [exact Hj|].
      apply (proj1 (NoDup_nth_error _) Hnd); [apply nth_error_Some|]; congruence.
    - intros H. apply (Permutation_in _ (Permutation_sym Hperm)), In_slice. eauto.
  Qed.

  Lemma spec_src_named i n d :
    nth_error ps i = Some (n, d) -> k <= i < u ->
    exists j, spec_src ps k perm i = Some (SArg (k + j)) /\ nth_error perm j = Some n.
  Proof.
    intros Hi H. rewrite (spec_src_rest _ _ _ _ _ _ Hi (proj1 H)).
    apply (named_iff_slice _ _ _ Hi), index_of_some_iff in H as [j Hj].
    rewrite Hj. exists j. split; [reflexivity|].
    apply index_of_some in Hj as [_ Hj]. rewrite Nat.sub_0_r in Hj. exact Hj.
  Qed.

  Lemma spec_src_beyond i n d :
    nth_error ps i = Some (n, d) -> u <= i ->
    spec_src ps k perm i = spec_src ps u [] i.
  Proof.
    intros Hi H. rewrite !(spec_src_rest _ _ _ _ _ _ Hi) by lia.
    rewrite (proj2 (index_of_none n perm 0)); [reflexivity|].
    rewrite (named_iff_slice _ _ _ Hi). lia.
  Qed.
End CallStyle.

