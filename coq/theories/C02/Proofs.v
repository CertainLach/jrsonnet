(** C02 — lemmas.  Every walk over the layers (the loops of Model.v, Part 1, the recursions of
    Part 2) is a fold of the definitions of the name that it sees ([seen_loop], [seen_r]); the
    skip counter is dealt with once, in [seen_loop_spec]. *)
From Coq Require Import List ZArith NArith Bool Lia Sorted.
From JrV Require Import C02.Model.
Import ListNotations.

Lemma sat_add_small : forall a b, (a + b < usize_max)%N -> sat_add a b = (a + b)%N.
Proof. intros. unfold sat_add. apply N.min_l. lia. Qed.

Lemma eqb_of_nat_S : forall s, N.eqb (N.of_nat (S s)) 0 = false.
Proof. intros. apply N.eqb_neq. lia. Qed.

Lemma dec_of_nat_S : forall s, sat_dec (N.of_nat (S s)) = N.of_nat s.
Proof. intros. unfold sat_dec. lia. Qed.

Lemma omit_skip_S : forall p s, (N.to_nat p <= s)%nat -> (p + 1 < usize_max)%N ->
  sat_dec (N.max (N.of_nat (S s)) (sat_add p 1)) = N.of_nat s.
Proof. intros. rewrite sat_add_small by lia. unfold sat_dec. lia. Qed.

Lemma omit_skip_0 : forall p, (p + 1 < usize_max)%N ->
  sat_dec (N.max 0 (sat_add p 1)) = N.of_nat (N.to_nat p).
Proof. intros. rewrite sat_add_small by lia. unfold sat_dec. lia. Qed.

Lemma rev_nonempty : forall {A} (a : A) l, exists x r, rev (a :: l) = x :: r.
Proof.
  intros. cbn [rev]. destruct (rev l ++ [a]) as [|x r] eqn:E; [|eauto].
  symmetry in E. apply app_cons_not_nil in E. contradiction.
Qed.

Lemma mem_In : forall k l, mem k l = true <-> In k l.
Proof.
  intros. unfold mem. rewrite existsb_exists. split.
  - intros (x & Hx & E). apply N.eqb_eq in E. subst. auto.
  - intros. exists k. split; auto. apply N.eqb_refl.
Qed.

Lemma assoc_In : forall {A} (l : list (name * A)) f v, assoc f l = Some v -> In (f, v) l.
Proof.
  induction l as [|[k a] r IH]; simpl; intros f v H; [discriminate|].
  destruct (N.eqb_spec f k) as [->|]; [left; congruence|right; auto].
Qed.

Lemma assoc_not_in : forall {A} k (l : list (name * A)), ~ In k (map fst l) -> assoc k l = None.
Proof.
  intros A k l Hn. destruct (assoc k l) eqn:E; [|reflexivity].
  apply assoc_In, (in_map fst) in E. contradiction.
Qed.

Lemma In_assoc : forall {A} (l : list (name * A)) f v,
  NoDup (map fst l) -> In (f, v) l -> assoc f l = Some v.
Proof.
  induction l as [|[k a] r IH]; simpl; intros f v Hnd H; [contradiction|].
  inversion Hnd; subst. destruct H as [E|Hin].
  - injection E as -> ->. rewrite N.eqb_refl. reflexivity.
  - destruct (N.eqb_spec f k) as [->|]; [|auto]. apply (in_map fst) in Hin. contradiction.
Qed.

Lemma bind_assoc : forall {A B C} (r : res A) (f : A -> res B) (g : B -> res C),
  bind (bind r f) g = bind r (fun a => bind (f a) g).
Proof. intros. destruct r; reflexivity. Qed.

Lemma bind_ext : forall {A B} (r : res A) (f g : A -> res B),
  (forall a, f a = g a) -> bind r f = bind r g.
Proof. intros. destruct r; simpl; auto. Qed.

Section WalkProofs.
Context {B V : Type}.
Variable ev : nat -> B -> res V.
Variable add : V -> V -> res V.

(** what one walk needs: a removal's [prev] + 1 does not saturate ([fits] gives more than that) *)
Definition small (rl : list (layer B)) : Prop := (N.of_nat (length rl) + 1 < usize_max)%N.

Lemma small_tail : forall (l : layer B) rl, small (l :: rl) -> small rl.
Proof. unfold small. intros. simpl length in H. lia. Qed.

Lemma laminar_len : forall n (rl : list (layer B)), laminar n rl -> (n <= length rl)%nat.
Proof.
  induction n; intros; simpl in *. lia.
  destruct rl; [contradiction|]. destruct H. apply IHn in H0. simpl. lia.
Qed.

Lemma wf_r_tail : forall (l : layer B) rl, wf_r (l :: rl) -> wf_r rl.
Proof. intros. destruct l; simpl in H; tauto. Qed.

Lemma wf_r_omit : forall om p (rl : list (layer B)), wf_r (LOmit om p :: rl) -> laminar (N.to_nat p) rl.
Proof. intros. simpl in H. tauto. Qed.

Lemma omit_fits : forall om p (rl : list (layer B)),
  wf_r (LOmit om p :: rl) -> small (LOmit om p :: rl) -> (p + 1 < usize_max)%N.
Proof.
  intros. apply wf_r_omit in H. apply laminar_len in H. unfold small in H0. simpl length in H0. lia.
Qed.

(** The members that define a name in layers no removal above has hidden, each with the number of
    layers below it (its `super`): by the code's skip counter, and by the SPEC's hidden count. *)
Fixpoint seen_loop (rl : list (layer B)) (key : name) (skip : N) : list (nat * member B) :=
  match rl with
  | [] => []
  | LObj fs _ _ :: below =>
      let rest := seen_loop below key (sat_dec skip) in
      match assoc key fs with
      | Some m => if N.eqb skip 0 then (length below, m) :: rest else rest
      | None => rest
      end
  | LOmit om n :: below =>
      seen_loop below key (sat_dec (if mem key om then N.max skip (sat_add n 1) else skip))
  end.

Fixpoint seen_r (rl : list (layer B)) (f : name) (h : nat) : list (nat * member B) :=
  match rl with
  | [] => []
  | l :: below =>
      match h with
      | S h' => seen_r below f h'
      | O => match l with
             | LObj fs _ _ =>
                 match assoc f fs with
                 | Some m => (length below, m) :: seen_r below f 0
                 | None => seen_r below f 0
                 end
             | LOmit om n => seen_r below f (if mem f om then N.to_nat n else 0)
             end
      end
  end.

(** the skip counter hides exactly the next [s] layers *)
Lemma seen_loop_spec : forall rl key s, wf_r rl -> small rl -> laminar s rl ->
  seen_loop rl key (N.of_nat s) = seen_r rl key s.
Proof.
  induction rl as [|l below IH]; intros key s Hwf Hsm Hlam; [reflexivity|].
  pose proof (wf_r_tail _ _ Hwf) as Hwf'. pose proof (small_tail _ _ Hsm) as Hsm'.
  destruct s as [|s'].
  - change (N.of_nat 0) with 0%N. cbn [seen_loop seen_r N.eqb]. change (sat_dec 0) with (N.of_nat 0).
    destruct l as [fs ls asr|om p].
    + rewrite IH by (simpl; auto). reflexivity.
    + destruct (mem key om).
      * rewrite omit_skip_0 by (eapply omit_fits; eauto). apply IH; auto. eapply wf_r_omit; eauto.
      * apply (IH key 0); simpl; auto.
  - destruct Hlam as [Hl Hlam]. cbn [seen_loop seen_r]. rewrite eqb_of_nat_S.
    destruct l as [fs ls asr|om p].
    + rewrite dec_of_nat_S, IH by auto. destruct (assoc key fs); reflexivity.
    + destruct (mem key om).
      * rewrite omit_skip_S; auto. eapply omit_fits; eauto.
      * rewrite dec_of_nat_S. apply IH; auto.
Qed.

Definition has_of (ms : list (nat * member B)) : bool :=
  match ms with [] => false | _ :: _ => true end.

(** visibility [o] above definitions of joint visibility [below]: `::`, `:::` decide, `:` takes what is below *)
Definition inherit (o below : option vis) : option vis :=
  match o with
  | Some VisNormal => match below with Some _ => below | None => o end
  | Some _ => o
  | None => below
  end.

Fixpoint vis_of (ms : list (nat * member B)) : option vis :=
  match ms with
  | [] => None
  | (_, m) :: below => inherit (Some (m_vis m)) (vis_of below)
  end.

Fixpoint read (ms : list (nat * member B)) : res (option V) :=
  match ms with
  | [] => Ok None
  | (sup, m) :: below =>
      if m_add m && has_of below then
        bind (ev sup (m_body m)) (fun b =>
        bind (read below) (fun s =>
          match s with
          | Some s => bind (add s b) (fun v => Ok (Some v))
          | None => Err ENoField
          end))
      else bind (ev sup (m_body m)) (fun b => Ok (Some b))
  end.

Lemma inherit_none_r : forall o, inherit o None = o.
Proof. intros [[]|]; reflexivity. Qed.

Lemma inherit_assoc : forall a b c, inherit (inherit a b) c = inherit a (inherit b c).
Proof. intros [[]|] [[]|] c; try reflexivity; destruct c; reflexivity. Qed.

Lemma has_of_vis : forall ms, has_of ms = is_some (vis_of ms).
Proof.
  intros [|[i m] ms]; [reflexivity|]. cbn [has_of vis_of].
  destruct (m_vis m), (vis_of ms); reflexivity.
Qed.

(** a read that sees a definition never yields [Ok None]; so the SPEC's [Err ENoField] arm is dead *)
Lemma read_cons : forall p ms, read (p :: ms) <> Ok None.
Proof.
  intros [i m] ms. cbn [read].
  destruct (m_add m && has_of ms), (ev i (m_body m)); cbn [bind]; try discriminate.
  destruct (read ms) as [[s|]| |]; cbn [bind]; try discriminate.
  destruct (add s a); discriminate.
Qed.

Lemma has_of_read : forall ms, has_of ms = false <-> read ms = Ok None.
Proof.
  intros [|p ms]; split; intro H; try reflexivity; [discriminate|]. now apply read_cons in H.
Qed.

Lemma has_r_seen : forall rl f h, has_r rl f h = has_of (seen_r rl f h).
Proof.
  induction rl as [|l below IH]; intros; [reflexivity|].
  destruct h; cbn [has_r seen_r]; [|apply IH].
  destruct l as [fs ls asr|om p]; [|apply IH].
  destruct (assoc f fs); [reflexivity|apply IH].
Qed.

Lemma vis_r_seen : forall rl f h, vis_r rl f h = vis_of (seen_r rl f h).
Proof.
  induction rl as [|l below IH]; intros; [reflexivity|].
  destruct h; cbn [vis_r seen_r]; [|apply IH].
  destruct l as [fs ls asr|om p]; [|apply IH].
  destruct (assoc f fs) as [m|]; [|apply IH].
  cbn [vis_of]. rewrite IH. destruct (m_vis m), (vis_of (seen_r below f 0)); reflexivity.
Qed.

Lemma lookup_r_seen : forall rl f h, lookup_r ev add rl f h = read (seen_r rl f h).
Proof.
  induction rl as [|l below IH]; intros; [reflexivity|].
  destruct h; cbn [lookup_r seen_r]; [|apply IH].
  destruct l as [fs ls asr|om p]; [|apply IH].
  destruct (assoc f fs) as [m|]; [|apply IH].
  cbn [read]. rewrite has_r_seen, IH. reflexivity.
Qed.

Lemma has_loop_seen : forall rl key skip, has_loop rl key skip = has_of (seen_loop rl key skip).
Proof.
  induction rl as [|l below IH]; intros; [reflexivity|]. cbn [has_loop seen_loop].
  destruct l as [fs ls asr|om p]; cbn [has_field_include_hidden_core].
  - destruct (assoc key fs); cbn [is_some]; [|apply IH].
    destruct (N.eqb skip 0); [reflexivity|apply IH].
  - destruct (mem key om); apply IH.
Qed.

Lemma vis_loop_seen : forall rl key ex skip,
  vis_loop rl key ex skip = inherit (if ex then Some VisNormal else None) (vis_of (seen_loop rl key skip)).
Proof.
  induction rl as [|l below IH]; intros.
  { destruct ex; reflexivity. }
  cbn [vis_loop seen_loop]. destruct l as [fs ls asr|om p]; cbn [field_visibility_core].
  - destruct (assoc key fs) as [m|]; [|apply IH].
    destruct (N.eqb skip 0); [|destruct (m_vis m); apply IH].
    cbn [vis_of]. rewrite <- inherit_assoc. destruct (m_vis m); rewrite ?IH; destruct ex; reflexivity.
  - destruct (mem key om); apply IH.
Qed.

(** the `+:` values collected so far, newest first, as the loop's [first_add] / [add_stack] pair *)
Definition enc (acc : list V) : option V * list V :=
  match acc with [] => (None, []) | a :: r => (Some a, r) end.

(** what is left to do once the read below [acc] has produced [o] *)
Definition finish_with (acc : list V) (o : option V) : res (option V) :=
  match o with
  | Some sv => bind (try_fold add sv (rev acc)) (fun v => Ok (Some v))
  | None => match rev acc with
            | [] => Ok None
            | init :: rest => bind (try_fold add init rest) (fun v => Ok (Some v))
            end
  end.

Lemma get_finish_done : forall acc,
  get_finish add (LDone (fst (enc acc)) (snd (enc acc))) = finish_with acc None.
Proof.
  intros [|a r]; [reflexivity|]. cbn [enc fst snd finish_with].
  destruct r as [|b r]; [reflexivity|]. cbn [get_finish].
  destruct (rev_nonempty a (b :: r)) as (x & r' & ->). reflexivity.
Qed.

Lemma finish_snoc : forall acc v, finish_with (acc ++ [v]) None = finish_with acc (Some v).
Proof. intros. cbn [finish_with]. rewrite rev_app_distr. reflexivity. Qed.

(** a `+:` value [b] pushed on the stack is added, after the loop, to what the definitions
    below yield, or stands alone if there are none *)
Lemma finish_push : forall ms acc b,
  bind (read ms) (finish_with (acc ++ [b]))
  = bind (if has_of ms
          then bind (read ms) (fun s =>
                 match s with
                 | Some s => bind (add s b) (fun v => Ok (Some v))
                 | None => Err ENoField
                 end)
          else Ok (Some b)) (finish_with acc).
Proof.
  intros [|p ms] acc b; cbn [has_of].
  { apply finish_snoc. }
  destruct (read (p :: ms)) as [[sv|]| |] eqn:E; cbn [bind]; try reflexivity.
  - cbn [finish_with]. rewrite rev_app_distr. cbn [rev app try_fold]. rewrite !bind_assoc. reflexivity.
  - now apply read_cons in E.
Qed.

(** the loop from any layer on, with any values [acc] already collected, then the code after it:
    the [read] of what it sees, then the additions still owed to [acc] *)
Lemma get_loop_seen : forall rl key skip acc,
  bind (get_loop ev rl key (fst (enc acc)) (snd (enc acc)) skip) (get_finish add)
  = bind (read (seen_loop rl key skip)) (finish_with acc).
Proof.
  induction rl as [|l below IH]; intros key skip acc.
  { apply get_finish_done. }
  cbn [get_loop seen_loop]. destruct l as [fs ls asr|om p]; cbn [get_for_core].
  2:{ destruct (mem key om); apply IH. }
  destruct (N.eqb skip 0); cbn [negb bind].
  2:{ destruct (assoc key fs); apply IH. }
  destruct (assoc key fs) as [m|]; [|apply IH].
  cbn [read]. destruct (ev (length below) (m_body m)) as [b| |]; cbn [bind].
  2,3: destruct (m_add m && has_of (seen_loop below key (sat_dec skip))); reflexivity.
  destruct (m_add m); cbn [andb bind].
  - (* +: pushes its value and goes on *)
    rewrite <- finish_push, <- IH. destruct acc; reflexivity.
  - (* a plain field ends the loop *)
    rewrite <- finish_snoc, <- get_finish_done. destruct acc; reflexivity.
Qed.

Lemma get_walk_seen : forall rl key skip,
  bind (get_loop ev rl key None [] skip) (get_finish add) = read (seen_loop rl key skip).
Proof.
  intros. etransitivity; [apply (get_loop_seen rl key skip [])|].
  destruct (read (seen_loop rl key skip)) as [[v|]| |]; reflexivity.
Qed.

Lemma wf_r_app_r : forall (x y : list (layer B)), wf_r (x ++ y) -> wf_r y.
Proof. induction x; intros; simpl in *; auto. apply IHx. eapply wf_r_tail; eauto. Qed.

Lemma upto_all : forall (cores : list (layer B)), cores_upto cores (length cores) = rev cores.
Proof. intros. unfold cores_upto. rewrite firstn_all. reflexivity. Qed.

Lemma seen_upto : forall cores key upto, wf cores ->
  seen_loop (cores_upto cores upto) key 0 = seen_r (cores_upto cores upto) key 0.
Proof.
  intros cores key upto [Hw Hf]. apply (seen_loop_spec _ key 0); [| |exact I].
  - unfold cores_upto. rewrite <- (firstn_skipn upto cores), rev_app_distr in Hw.
    eapply wf_r_app_r; eauto.
  - unfold small, fits, cores_upto in *. rewrite rev_length, firstn_length. lia.
Qed.

Theorem get_refines : forall cores key upto, wf cores ->
  get_idx_walk ev add cores key upto = lookup_spec ev add cores key upto.
Proof.
  intros. unfold get_idx_walk, lookup_spec.
  rewrite get_walk_seen, lookup_r_seen, seen_upto by auto. reflexivity.
Qed.

Theorem has_refines : forall cores key upto, wf (B:=B) cores ->
  has_field_include_hidden_idx cores key upto = has_spec cores key upto.
Proof.
  intros. unfold has_field_include_hidden_idx, has_spec.
  rewrite has_loop_seen, has_r_seen, seen_upto by auto. reflexivity.
Qed.

Theorem visibility_refines : forall cores key upto, wf (B:=B) cores ->
  field_visibility_idx cores key upto = vis_spec cores key upto.
Proof.
  intros. unfold field_visibility_idx, vis_spec.
  rewrite vis_loop_seen, vis_r_seen, seen_upto by auto. reflexivity.
Qed.

(** the three loops see the same definitions: they agree on every layer list, well formed or not *)
Theorem loops_agree : forall cores key upto,
  has_field_include_hidden_idx cores key upto = is_some (field_visibility_idx cores key upto)
  /\ (has_field_include_hidden_idx cores key upto = false <-> get_idx_walk ev add cores key upto = Ok None).
Proof.
  intros. unfold has_field_include_hidden_idx, field_visibility_idx, get_idx_walk.
  rewrite has_loop_seen, vis_loop_seen, get_walk_seen. split; [apply has_of_vis|apply has_of_read].
Qed.

Lemma laminar_app : forall n (x y : list (layer B)), laminar n x -> laminar n (x ++ y).
Proof.
  induction n; intros; simpl in *; auto.
  destruct x; [contradiction|]. simpl. destruct H. split; auto.
Qed.

Lemma wf_r_app : forall (x y : list (layer B)), wf_r x -> wf_r y -> wf_r (x ++ y).
Proof.
  induction x as [|l x IH]; intros; simpl in *; auto.
  destruct l; simpl in *.
  - destruct H. split; auto.
  - destruct H as (? & ? & ?). repeat split; auto. apply laminar_app; auto.
Qed.

Lemma laminar_all : forall (rl : list (layer B)), wf_r rl -> laminar (length rl) rl.
Proof.
  induction rl as [|l rl IH]; intros; simpl; auto.
  split; [|apply IH; eapply wf_r_tail; eauto].
  destruct l; auto. apply wf_r_omit in H. apply laminar_len in H. lia.
Qed.

(** two objects in which a name sees the same definitions answer alike for it *)
Lemma spec_of_seen : forall (c c' : list (layer B)) k,
  seen_r (rev c) k 0 = seen_r (rev c') k 0 ->
  lookup_spec ev add c k (length c) = lookup_spec ev add c' k (length c')
  /\ has_spec c k (length c) = has_spec c' k (length c')
  /\ vis_spec c k (length c) = vis_spec c' k (length c').
Proof.
  intros c c' k H. unfold lookup_spec, has_spec, vis_spec.
  rewrite !upto_all, !lookup_r_seen, !has_r_seen, !vis_r_seen, H. auto.
Qed.

Lemma seen_r_skip : forall (rl : list (layer B)) key s, seen_r rl key s = seen_r (skipn s rl) key 0.
Proof.
  induction rl as [|l rl IH]; intros; destruct s; try reflexivity. apply IH.
Qed.

Lemma mem_single : forall k, mem k [k] = true.
Proof. intros. unfold mem. simpl. rewrite N.eqb_refl. reflexivity. Qed.

Lemma seen_remove_key : forall (sup o : list (layer B)) k,
  seen_r (rev (sup ++ remove_key o k)) k 0 = seen_r (rev sup) k 0.
Proof.
  intros. unfold remove_key. rewrite !rev_app_distr. simpl app.
  cbn [seen_r]. rewrite mem_single, Nat2N.id, seen_r_skip.
  rewrite <- (rev_length o), skipn_app, skipn_all, Nat.sub_diag. reflexivity.
Qed.

(** a layer that does not remove k *)
Definition no_omit_of (k : name) (l : layer B) : Prop :=
  match l with LOmit om _ => mem k om = false | LObj _ _ _ => True end.

Lemma seen_r_above : forall (X X' : list (layer B)) k,
  length X = length X' -> seen_r X k 0 = seen_r X' k 0 ->
  forall ra, Forall (no_omit_of k) ra -> seen_r (ra ++ X) k 0 = seen_r (ra ++ X') k 0.
Proof.
  intros X X' k Hlen H. induction 1 as [|l ra Hl _ IH]; [exact H|].
  simpl app. cbn [seen_r]. destruct l as [fs ls asr|om p].
  - rewrite IH, !app_length, Hlen. reflexivity.
  - simpl in Hl. rewrite Hl. exact IH.
Qed.

(** an object layer without members: a placeholder of the same height *)
Definition blank : layer B := LObj [] [] [].

Lemma rev_repeat : forall {A} (x : A) n, rev (repeat x n) = repeat x n.
Proof. induction n; simpl; [reflexivity|]. rewrite IHn. symmetry. apply repeat_cons. Qed.

Lemma seen_r_blanks : forall n (rs : list (layer B)) k, seen_r (repeat blank n ++ rs) k 0 = seen_r rs k 0.
Proof. induction n; intros; [reflexivity|apply IHn]. Qed.

End WalkProofs.

Section WfBool.
Context {B : Type}.

Lemma nodupb_NoDup : forall l, nodupb l = true -> NoDup l.
Proof.
  induction l; simpl; intros; constructor.
  - apply andb_prop in H. destruct H. intro Hin. apply mem_In in Hin. rewrite Hin in H. discriminate.
  - apply IHl. apply andb_prop in H. tauto.
Qed.

Lemma laminarb_laminar : forall n (rl : list (layer B)), laminarb n rl = true -> laminar n rl.
Proof.
  induction n; intros; simpl in *; auto.
  destruct rl; [discriminate|]. apply andb_prop in H. destruct H. split; auto.
  destruct l; auto. apply Nat.leb_le. auto.
Qed.

Lemma wf_rb_wf_r : forall (rl : list (layer B)), wf_rb rl = true -> wf_r rl.
Proof.
  induction rl as [|l rl IH]; intros; simpl in *; auto.
  destruct l.
  - apply andb_prop in H. destruct H. split; auto. apply nodupb_NoDup; auto.
  - apply andb_prop in H. destruct H as [H H2]. apply andb_prop in H. destruct H.
    repeat split; auto. apply nodupb_NoDup; auto. apply laminarb_laminar; auto.
Qed.

Theorem wfb_wf : forall (cores : list (layer B)), wfb cores = true -> wf cores.
Proof.
  unfold wfb, wf, fits. intros. apply andb_prop in H. destruct H. split.
  - apply wf_rb_wf_r; auto.
  - apply N.ltb_lt; auto.
Qed.
End WfBool.

Section FieldsVisibility.
Context {B : Type}.

Lemma assoc_upsert : forall out f k dflt g,
  assoc f (map_upsert out k dflt g) =
  if N.eqb f k then Some (g (match assoc k out with Some d => d | None => dflt end)) else assoc f out.
Proof.
  induction out as [|[k' d] r IH]; intros; simpl.
  - destruct (N.eqb f k); reflexivity.
  - destruct (N.eqb k k') eqn:E; simpl.
    + apply N.eqb_eq in E. subst k'. destruct (N.eqb f k); reflexivity.
    + rewrite IH. destruct (N.eqb f k) eqn:E2.
      * apply N.eqb_eq in E2. subst f. rewrite E. reflexivity.
      * reflexivity.
Qed.

Lemma upsert_keys : forall out k dflt g x,
  In x (map fst (map_upsert out k dflt g)) -> x = k \/ In x (map fst out).
Proof.
  induction out as [|[k' d] r IH]; simpl; intros k dflt g x.
  - intros [<-|[]]. auto.
  - destruct (N.eqb k k'); simpl; [tauto|]. intros [|H]; [tauto|]. apply IH in H. tauto.
Qed.

Lemma upsert_nodup : forall out k dflt g,
  NoDup (map fst out) -> NoDup (map fst (map_upsert out k dflt g)).
Proof.
  induction out as [|[k' d] r IH]; intros; simpl.
  - constructor; [simpl; tauto|constructor].
  - inversion H; subst. destruct (N.eqb k k') eqn:E; simpl.
    + constructor; auto.
    + constructor; auto. intro Hin. apply upsert_keys in Hin.
      destruct Hin as [->|Hin]; [rewrite N.eqb_refl in E; discriminate|auto].
Qed.

Definition dflt_of (oi : N) (o : option fvdata) : fvdata :=
  match o with Some d => d | None => FvData oi None end.

Lemma fold_layer_assoc : forall oi (evs : list (name * enum_ev)) out f,
  NoDup (map fst evs) ->
  assoc f (fold_left (fun o ke => map_upsert o (fst ke) (FvData oi None) (fun d => fv_step oi d (snd ke))) evs out)
  = match assoc f evs with
    | Some e => Some (fv_step oi (dflt_of oi (assoc f out)) e)
    | None => assoc f out
    end.
Proof.
  induction evs as [|[k e] r IH]; intros out f Hnd; [reflexivity|].
  inversion Hnd; subst. simpl fold_left. rewrite IH by auto. simpl assoc.
  rewrite assoc_upsert. destruct (N.eqb f k) eqn:E.
  - apply N.eqb_eq in E. subst f. rewrite (assoc_not_in k r) by auto. reflexivity.
  - reflexivity.
Qed.

Lemma fold_layer_nodup : forall oi (evs : list (name * enum_ev)) out,
  NoDup (map fst out) ->
  NoDup (map fst (fold_left (fun o ke => map_upsert o (fst ke) (FvData oi None) (fun d => fv_step oi d (snd ke))) evs out)).
Proof.
  induction evs; intros; simpl; auto. apply IHevs. apply upsert_nodup. auto.
Qed.

Lemma assoc_map_snd : forall {A C} (g : A -> C) f (l : list (name * A)),
  assoc f (map (fun km => (fst km, g (snd km))) l) = option_map g (assoc f l).
Proof.
  induction l as [|[k a] r IH]; simpl; auto. destruct (N.eqb f k); auto.
Qed.

Lemma assoc_map_const : forall {C} (c : C) f (l : list name),
  assoc f (map (fun k => (k, c)) l) = if mem f l then Some c else None.
Proof.
  induction l; simpl; auto. unfold mem in *. simpl. destruct (N.eqb f a); auto.
Qed.

Lemma enum_event : forall (l : layer B) f,
  assoc f (enum_fields_core l) =
  match l with
  | LObj fs _ _ => option_map (fun m => EvNormal (m_vis m)) (assoc f fs)
  | LOmit om n => if mem f om then Some (EvOmit n) else None
  end.
Proof.
  intros [fs ls asr|om n] f; [apply (assoc_map_snd (fun m => EvNormal (m_vis m)))|apply assoc_map_const].
Qed.

Lemma enum_nodup : forall (l : layer B) rl, wf_r (l :: rl) -> NoDup (map fst (enum_fields_core l)).
Proof.
  intros. destruct l as [fs ls asr|om n]; simpl in *.
  - rewrite map_map. simpl. tauto.
  - rewrite map_map. simpl. rewrite map_id. tauto.
Qed.

Lemma fv_loop_nodup : forall (rl : list (layer B)) oi out,
  NoDup (map fst out) -> NoDup (map fst (fv_loop rl oi out)).
Proof.
  induction rl; intros; simpl; auto. apply IHrl. apply fold_layer_nodup. auto.
Qed.

(** what an entry of the map stands for at omit_index [oi]: the visibility joined so far, and
    the skip counter of the per-field walk *)
Definition final (o : option fvdata) : option vis :=
  match o with Some d => exists_visible d | None => None end.
Definition skipof (oi : N) (o : option fvdata) : N :=
  match o with Some d => (omitted_until d - oi)%N | None => 0%N end.

Lemma fv_step_normal : forall oi d v,
  fv_step oi d (EvNormal v) =
  if N.leb (omitted_until d) oi
  then FvData (omitted_until d) (inherit (exists_visible d) (Some v)) else d.
Proof.
  intros oi [ou [[]|]] []; cbn [fv_step omitted_until exists_visible is_some negb];
    destruct (N.leb ou oi); reflexivity.
Qed.

Lemma skipof_next : forall oi d, skipof (oi + 1) d = sat_dec (skipof oi d).
Proof.
  intros oi [d|]; [|reflexivity]. cbn [skipof]. rewrite N.sub_add_distr. apply N.sub_1_r.
Qed.

Lemma sub_eqb_0 : forall a b, N.eqb (a - b) 0 = N.leb a b.
Proof. intros. apply eq_true_iff_eq. rewrite N.eqb_eq, N.leb_le. apply N.sub_0_le. Qed.

Lemma fv_seen : forall oi d v,
  let d' := Some (fv_step oi (dflt_of oi d) (EvNormal v)) in
  final d' = (if N.eqb (skipof oi d) 0 then inherit (final d) (Some v) else final d)
  /\ skipof (oi + 1) d' = sat_dec (skipof oi d).
Proof.
  intros oi d v. cbv zeta. rewrite fv_step_normal, <- skipof_next.
  destruct d as [[ou e]|]; cbn [dflt_of final skipof omitted_until exists_visible].
  - rewrite sub_eqb_0. destruct (N.leb ou oi); split; reflexivity.
  - rewrite N.leb_refl. split; [reflexivity|apply N.sub_0_le, N.le_add_r].
Qed.

Lemma fv_omitted : forall oi d n, (oi + n + 1 < usize_max)%N ->
  let d' := Some (fv_step oi (dflt_of oi d) (EvOmit n)) in
  final d' = final d /\ skipof (oi + 1) d' = sat_dec (N.max (skipof oi d) (sat_add n 1)).
Proof.
  intros oi d n Hb. cbn [fv_step final skipof omitted_until exists_visible].
  rewrite (sat_add_small oi n), !sat_add_small by lia. split; [destruct d; reflexivity|].
  (* max ou (oi + (n + 1)) - oi - 1, and subtraction distributes over max *)
  rewrite N.sub_add_distr, <- N.sub_max_distr_r, <- N.add_assoc, (N.add_comm oi), N.add_sub, N.sub_1_r.
  destruct d; cbn [dflt_of omitted_until skipof]; [|rewrite N.sub_diag]; reflexivity.
Qed.

Lemma fv_loop_spec : forall (rl : list (layer B)) f, wf_r rl ->
  forall oi out, (oi + N.of_nat (length rl) + 1 < usize_max)%N ->
    final (assoc f (fv_loop rl oi out))
    = inherit (final (assoc f out)) (vis_of (seen_loop rl f (skipof oi (assoc f out)))).
Proof.
  induction rl as [|l below IH]; intros f Hwf oi out Hb.
  { symmetry. apply inherit_none_r. }
  simpl length in Hb. cbn [fv_loop seen_loop].
  rewrite sat_add_small, IH by (try (eapply wf_r_tail; eauto); lia). clear IH.
  unfold fv_layer. rewrite fold_layer_assoc, enum_event by (eapply enum_nodup; eauto).
  generalize (assoc f out). intro d. destruct l as [fs ls asr|om p].
  - destruct (assoc f fs) as [m|]; cbn [option_map]; [|rewrite skipof_next; reflexivity].
    destruct (fv_seen oi d (m_vis m)) as [Hf Hs]. rewrite Hf, Hs.
    destruct (N.eqb (skipof oi d) 0); [|reflexivity]. apply inherit_assoc.
  - destruct (mem f om); [|rewrite skipof_next; reflexivity].
    apply wf_r_omit, laminar_len in Hwf.
    destruct (fv_omitted oi d p) as [Hf Hs]; [lia|]. rewrite Hf, Hs. reflexivity.
Qed.

Lemma assoc_retain : forall out f, NoDup (map fst out) -> assoc f (retain out) = final (assoc f out).
Proof.
  induction out as [|[k d] r IH]; intros f Hnd; [reflexivity|].
  inversion Hnd; subst. simpl. destruct (exists_visible d) as [v|] eqn:E; simpl.
  - destruct (N.eqb f k); auto.
  - destruct (N.eqb f k) eqn:E2.
    + apply N.eqb_eq in E2. subst f. rewrite IH by auto. rewrite (assoc_not_in k r) by auto.
      simpl. auto.
    + auto.
Qed.

Theorem fields_visibility_agrees : forall (cores : list (layer B)) f, wf cores ->
  assoc f (fields_visibility cores) = field_visibility_idx cores f (length cores).
Proof.
  intros cores f [Hw Hf]. unfold fields_visibility, field_visibility_idx.
  rewrite assoc_retain by (apply fv_loop_nodup; constructor).
  rewrite fv_loop_spec, vis_loop_seen, upto_all; auto.
  unfold fits in Hf. rewrite rev_length. lia.
Qed.

Lemma retain_keys_nodup : forall out, NoDup (map fst out) -> NoDup (map fst (retain out)).
Proof.
  induction out as [|[k d] r IH]; intros; simpl; [constructor|].
  inversion H; subst. destruct (exists_visible d); simpl; auto.
  constructor; auto. intro Hin. apply H2.
  clear -Hin. induction r as [|[k' d'] r IH]; simpl in *; [tauto|].
  destruct (exists_visible d'); simpl in *; tauto.
Qed.

Theorem fields_visibility_nodup : forall (cores : list (layer B)),
  NoDup (map fst (fields_visibility cores)).
Proof. intros. apply retain_keys_nodup. apply fv_loop_nodup. constructor. Qed.

End FieldsVisibility.

Section FieldsEq.
Context {B : Type}.

Definition ssorted := StronglySorted N.lt.

Lemma In_insert : forall k l x, In x (insert_sorted k l) <-> In x (k :: l).
Proof.
  induction l as [|y r IH]; intros; simpl; [tauto|].
  destruct (N.leb k y); simpl; [tauto|]. rewrite IH. simpl. tauto.
Qed.

Lemma In_sort : forall l x, In x (sort_names l) <-> In x l.
Proof.
  induction l; intros; simpl; [tauto|]. rewrite In_insert. simpl. rewrite IHl. tauto.
Qed.

Lemma insert_ssorted : forall k l, ssorted l -> ~ In k l -> ssorted (insert_sorted k l).
Proof.
  induction l as [|y r IH]; intros Hs Hn; simpl.
  - constructor; constructor.
  - inversion Hs; subst. destruct (N.leb k y) eqn:E.
    + apply N.leb_le in E. assert (k < y)%N by (simpl in Hn; lia).
      constructor; auto. constructor; auto.
      rewrite Forall_forall in *. intros z Hz. specialize (H2 z Hz). lia.
    + apply N.leb_gt in E. constructor.
      * apply IH; auto. simpl in Hn. tauto.
      * rewrite Forall_forall in *. intros z Hz. apply In_insert in Hz. destruct Hz as [<-|Hz]; auto.
Qed.

Lemma sort_ssorted : forall l, NoDup l -> ssorted (sort_names l).
Proof.
  induction l; intros; simpl; [constructor|]. inversion H; subst.
  apply insert_ssorted; auto. rewrite In_sort. auto.
Qed.

Lemma ssorted_ext : forall l1 l2, ssorted l1 -> ssorted l2 ->
  (forall x, In x l1 <-> In x l2) -> l1 = l2.
Proof.
  induction l1 as [|a r1 IH]; intros l2 H1 H2 Hext.
  - destruct l2 as [|b r2]; auto. exfalso. apply (Hext b). simpl; auto.
  - destruct l2 as [|b r2]; [exfalso; apply (Hext a); simpl; auto|].
    inversion H1; subst. inversion H2; subst. rewrite Forall_forall in *.
    assert (a = b).
    { destruct (proj1 (Hext a) (or_introl eq_refl)) as [E|Hin]; auto.
      destruct (proj2 (Hext b) (or_introl eq_refl)) as [E|Hin2]; auto.
      specialize (H6 a Hin). specialize (H4 b Hin2). lia. }
    subst b. f_equal. apply IH; auto. intro x. split; intro Hx.
    + destruct (proj1 (Hext x) (or_intror Hx)); auto. subst x. specialize (H4 a Hx). lia.
    + destruct (proj2 (Hext x) (or_intror Hx)); auto. subst x. specialize (H6 a Hx). lia.
Qed.

Lemma In_dedup : forall l x, In x (dedup l) <-> In x l.
Proof.
  induction l; intros; simpl; [tauto|].
  destruct (mem a (dedup l)) eqn:E; simpl; rewrite IHl; [|tauto].
  apply mem_In, IHl in E. split; [auto|intros [<-|]; auto].
Qed.

Lemma dedup_nodup : forall l, NoDup (dedup l).
Proof.
  induction l; simpl; [constructor|].
  destruct (mem a (dedup l)) eqn:E; auto. constructor; auto.
  intro Hin. apply mem_In in Hin. congruence.
Qed.

Lemma nodup_map_filter : forall {A} (p : name * A -> bool) (l : list (name * A)),
  NoDup (map fst l) -> NoDup (map fst (filter p l)).
Proof.
  induction l as [|x r IH]; intros; simpl; [constructor|].
  inversion H; subst. destruct (p x); simpl; auto. constructor; auto.
  intro Hin. apply H2. revert Hin. apply incl_map, incl_filter.
Qed.

Lemma vis_r_in_names : forall (rl : list (layer B)) f s v,
  vis_r rl f s = Some v -> In f (flat_map layer_names rl).
Proof.
  induction rl as [|l rl IH]; intros f s v H; [discriminate|].
  simpl. apply in_or_app. destruct s; cbn [vis_r] in H; [|right; eauto].
  destruct l as [fs ls asr|om p]; cbn [layer_names].
  - destruct (assoc f fs) eqn:E; [left; apply assoc_In, (in_map fst) in E; exact E|right; eauto].
  - destruct (mem f om) eqn:E; [left; apply mem_In; auto|right; eauto].
Qed.

Lemma vis_spec_names : forall (cores : list (layer B)) f v,
  vis_spec cores f (length cores) = Some v -> In f (all_names cores).
Proof.
  unfold vis_spec, all_names. intros cores f v H. rewrite upto_all in H.
  apply vis_r_in_names, in_flat_map in H. destruct H as (l & Hl & Hf).
  apply in_flat_map. exists l. split; [apply in_rev|]; auto.
Qed.

Lemma fields_visibility_spec : forall (cores : list (layer B)) f v, wf cores ->
  In (f, v) (fields_visibility cores) <-> vis_spec cores f (length cores) = Some v.
Proof.
  intros. rewrite <- visibility_refines, <- fields_visibility_agrees by auto.
  split; [apply In_assoc, fields_visibility_nodup|apply assoc_In].
Qed.

Theorem fields_refines : forall (cores : list (layer B)) hid, wf cores ->
  fields_ex cores hid = fields_spec cores hid.
Proof.
  intros cores hid Hwf. unfold fields_ex, fields_spec. apply ssorted_ext.
  - apply sort_ssorted. apply nodup_map_filter. apply fields_visibility_nodup.
  - apply sort_ssorted. apply NoDup_filter. apply dedup_nodup.
  - intro f. rewrite !In_sort, filter_In, In_dedup, in_map_iff. split.
    + intros ([f' v] & <- & Hin). apply filter_In in Hin. destruct Hin as [Hin Hc].
      apply fields_visibility_spec in Hin; auto. simpl. rewrite Hin.
      split; [eapply vis_spec_names; eauto|exact Hc].
    + intros [_ Hp]. destruct (vis_spec cores f (length cores)) as [v|] eqn:E; [|discriminate].
      exists (f, v). split; auto. apply filter_In. split; auto. apply fields_visibility_spec; auto.
Qed.

End FieldsEq.

Section Interp.

Lemma read_ext : forall {B V} (ev1 ev2 : nat -> B -> res V) add,
  (forall i b, ev1 i b = ev2 i b) -> forall ms, read ev1 add ms = read ev2 add ms.
Proof.
  intros B V ev1 ev2 add H. induction ms as [|[i m] ms IH]; [reflexivity|].
  cbn [read]. rewrite H, IH. reflexivity.
Qed.

Lemma ops_get_eq : forall (ev1 ev2 : nat -> clo -> res val), (forall i b, ev1 i b = ev2 i b) ->
  forall o f upto, o_get impl_ops ev1 o f upto = o_get spec_ops ev2 o f upto.
Proof.
  intros. cbn [o_get impl_ops spec_ops]. destruct (wfb o) eqn:E; [|reflexivity].
  rewrite get_refines by (apply wfb_wf; auto). unfold lookup_spec. rewrite !lookup_r_seen.
  apply read_ext. auto.
Qed.

Lemma ops_has_eq : forall o f upto, o_has impl_ops o f upto = o_has spec_ops o f upto.
Proof.
  intros. cbn [o_has impl_ops spec_ops]. destruct (wfb o) eqn:E; [|reflexivity].
  cbn [andb]. apply has_refines. apply wfb_wf; auto.
Qed.

Lemma ops_vis_eq : forall o f, o_vis impl_ops o f = o_vis spec_ops o f.
Proof.
  intros. cbn [o_vis impl_ops spec_ops]. destruct (wfb o) eqn:E; [|reflexivity].
  apply visibility_refines. apply wfb_wf; auto.
Qed.

Lemma ops_fields_eq : forall o hid, o_fields impl_ops o hid = o_fields spec_ops o hid.
Proof.
  intros. cbn [o_fields impl_ops spec_ops]. destruct (wfb o) eqn:E; [|reflexivity].
  apply fields_refines. apply wfb_wf; auto.
Qed.

Lemma mapM_ext : forall {A C} (f g : A -> res C) l, (forall a, f a = g a) -> mapM f l = mapM g l.
Proof.
  induction l; intros; simpl; auto. rewrite H. apply bind_ext. intro. rewrite IHl by auto. reflexivity.
Qed.

Variables evA evB : bool -> list frame -> expr -> res val.
Hypothesis Hev : forall g F e, evA g F e = evB g F e.

Lemma ev_clo_eq : forall g this sup c, ev_clo evA g this sup c = ev_clo evB g this sup c.
Proof. intros. destruct c. apply Hev. Qed.

Lemma run_assertions_from_eq : forall this ls idx,
  run_assertions_from evA this idx ls = run_assertions_from evB this idx ls.
Proof.
  induction ls as [|l r IH]; intros; [reflexivity|]. cbn [run_assertions_from].
  rewrite IH. destruct l; [|reflexivity].
  rewrite (mapM_ext _ (run_assert evB this idx)); [reflexivity|].
  intro c. unfold run_assert. rewrite ev_clo_eq. reflexivity.
Qed.

Lemma run_assertions_eq : forall g this, run_assertions evA g this = run_assertions evB g this.
Proof. intros. unfold run_assertions. destruct g; auto. apply run_assertions_from_eq. Qed.

Lemma obj_get_eq : forall g this f upto,
  obj_get impl_ops evA g this f upto = obj_get spec_ops evB g this f upto.
Proof.
  intros. unfold obj_get. rewrite run_assertions_eq. apply bind_ext. intros _.
  apply ops_get_eq. intros. apply ev_clo_eq.
Qed.

Lemma obj_index_eq : forall g this f, obj_index impl_ops evA g this f = obj_index spec_ops evB g this f.
Proof. intros. unfold obj_index. rewrite obj_get_eq. reflexivity. Qed.

Lemma step_eq : forall g F e, step impl_ops evA g F e = step spec_ops evB g F e.
Proof.
  intros g F e. destruct e; cbn [step]; rewrite ?Hev; try reflexivity;
    try (apply bind_ext; intro; rewrite ?Hev; reflexivity).
  - (* ESelfF *) destruct (nth_error F up) as [[this sup]|]; auto. apply obj_index_eq.
  - (* EDollarF *) destruct (rev F) as [|[this sup] ?]; auto. apply obj_index_eq.
  - (* ESuperF *) destruct F as [|[this sup] ?]; auto. destruct (Nat.eqb sup 0); auto.
    unfold or_no_field. rewrite obj_get_eq. reflexivity.
  - (* EInSuper *) destruct F as [|[this sup] ?]; auto. rewrite ops_has_eq. reflexivity.
  - (* EInSelf *) destruct (nth_error F up) as [[this sup]|]; auto. rewrite ops_has_eq. reflexivity.
  - (* ELocal *) destruct (nth_error F up) as [[this sup]|]; auto.
    destruct (nth_error this sup) as [[fs locals asr|]|]; auto.
    destruct (assoc l locals); auto. apply ev_clo_eq.
  - (* EIdx *) apply bind_ext. intros [| | |o]; auto. apply obj_index_eq.
  - (* EHas *) apply bind_ext. intros [| | |o]; auto. rewrite ops_has_eq, ops_vis_eq. reflexivity.
Qed.

Variables mfA mfB : val -> res tree.
Hypothesis Hmf : forall v, mfA v = mfB v.

Lemma manifest_step_eq : forall v,
  manifest_step impl_ops evA mfA v = manifest_step spec_ops evB mfB v.
Proof.
  intros [| | |o]; cbn [manifest_step]; auto.
  rewrite run_assertions_eq. apply bind_ext. intros _. rewrite ops_fields_eq.
  erewrite mapM_ext; [reflexivity|]. intro f. cbv beta. rewrite obj_index_eq.
  apply bind_ext. intro. rewrite Hmf. reflexivity.
Qed.

End Interp.

(** non-vacuity: a 5-layer chain with +:, ::, :::, a removal layer and a re-introduction *)
Section NonVacuity.
Let ev0 (sup : nat) (b : nat) : res (list nat) := Ok [b; sup].
Let add0 (a b : list nat) : res (list nat) := Ok (a ++ b).

(* {a:: 1, b: 7} + {a+::: 2} , objectRemoveKey(.., b) , + {a+: 3, b+: 4} + {c: 5} *)
Definition ex_cores : list (layer nat) :=
  [ LObj [(0%N, Member false VisHidden 1); (1%N, Member false VisNormal 7)] [] [];
    LObj [(0%N, Member true VisUnhide 2)] [] [];
    LOmit [1%N] 2;
    LObj [(0%N, Member true VisNormal 3); (1%N, Member true VisNormal 4)] [] [];
    LObj [(2%N, Member false VisNormal 5)] [] [] ].

Example ex_wf : wf ex_cores.
Proof. apply wfb_wf. vm_compute. reflexivity. Qed.

Example ex_get_a : get_idx_walk ev0 add0 ex_cores 0%N 5 = Ok (Some [1; 0; 2; 1; 3; 3]).
Proof. vm_compute. reflexivity. Qed.
Example ex_get_a_spec : lookup_spec ev0 add0 ex_cores 0%N 5 = Ok (Some [1; 0; 2; 1; 3; 3]).
Proof. rewrite <- get_refines by apply ex_wf. apply ex_get_a. Qed.
(* b was removed below layer 3, so b+: finds no super *)
Example ex_get_b : get_idx_walk ev0 add0 ex_cores 1%N 5 = Ok (Some [4; 3]).
Proof. vm_compute. reflexivity. Qed.
(* super.b seen from layer 2 (below the removal) still finds the original *)
Example ex_get_b_super : get_idx_walk ev0 add0 ex_cores 1%N 2 = Ok (Some [7; 0]).
Proof. vm_compute. reflexivity. Qed.
Example ex_vis : (field_visibility_idx ex_cores 0%N 5, field_visibility_idx ex_cores 0%N 1,
                  field_visibility_idx ex_cores 1%N 3, field_visibility_idx ex_cores 3%N 5)
                 = (Some VisUnhide, Some VisHidden, None, None).
Proof. vm_compute. reflexivity. Qed.
Example ex_fields : (fields_ex ex_cores false, fields_ex ex_cores true) = ([0; 1; 2]%N, [0; 1; 2]%N)
                    /\ fields_ex (firstn 3 ex_cores) true = [0%N].
Proof. vm_compute. auto. Qed.
Example ex_remove : remove_key (firstn 2 ex_cores) 1%N = firstn 3 ex_cores.
Proof. reflexivity. Qed.
End NonVacuity.
