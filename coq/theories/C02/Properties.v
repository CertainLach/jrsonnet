(** C02 — the property theorems; their lemmas are in Proofs.v, which ends with the non-vacuity examples. *)
From Coq Require Import List ZArith NArith Lia.
From JrV Require Import C02.Model C02.Proofs.
Import ListNotations.

(** Field reads: the get_idx_uncached loop equals the right-to-left layer recursion; upto = len is
    `self.f`, upto = i is `super.f` from layer i; `add` is not assumed associative or total. *)
Theorem C02_get_refines :
  forall (B V : Type) (ev : nat -> B -> res V) (add : V -> V -> res V)
    (cores : list (layer B)) (key : name) (upto : nat),
    wf cores -> get_idx_walk ev add cores key upto = lookup_spec ev add cores key upto.
Proof. exact @get_refines. Qed.
Print Assumptions C02_get_refines.

(** `in`, std.objectHasAll, "f" in super. *)
Theorem C02_has_refines :
  forall (B : Type) (cores : list (layer B)) (key : name) (upto : nat),
    wf cores -> has_field_include_hidden_idx cores key upto = has_spec cores key upto.
Proof. exact @has_refines. Qed.
Print Assumptions C02_has_refines.

(** `:` inherits, `::` hides, `:::` unhides, right-most explicit one wins; removal layers hide. *)
Theorem C02_visibility_refines :
  forall (B : Type) (cores : list (layer B)) (key : name) (upto : nat),
    wf cores -> field_visibility_idx cores key upto = vis_spec cores key upto.
Proof. exact @visibility_refines. Qed.
Print Assumptions C02_visibility_refines.

(** membership, visibility and reads agree *)
Theorem C02_has_field_agrees :
  forall (B V : Type) (ev : nat -> B -> res V) (add : V -> V -> res V)
    (cores : list (layer B)) (key : name) (upto : nat),
    wf cores ->
    has_field_include_hidden_idx cores key upto = is_some (field_visibility_idx cores key upto)
    /\ (has_field_include_hidden_idx cores key upto = false <-> get_idx_walk ev add cores key upto = Ok None).
Proof. intros B V ev add cores key upto _. apply loops_agree. Qed.
Print Assumptions C02_has_field_agrees.

(** the single-pass map (omitted_until) behind objectFields*/manifest/== agrees with the per-field walk *)
Theorem C02_fields_visibility_agrees :
  forall (B : Type) (cores : list (layer B)) (f : name),
    wf cores -> assoc f (fields_visibility cores) = field_visibility_idx cores f (length cores).
Proof. exact @fields_visibility_agrees. Qed.
Print Assumptions C02_fields_visibility_agrees.

Theorem C02_fields_visibility_nodup :
  forall (B : Type) (cores : list (layer B)), NoDup (map fst (fields_visibility cores)).
Proof. exact @fields_visibility_nodup. Qed.
Print Assumptions C02_fields_visibility_nodup.

(** (a + b) + c and a + (b + c) are the same object *)
Theorem C02_extend_assoc :
  forall (B : Type) (a b c : list (layer B)),
    extend_from (extend_from a b) c = extend_from a (extend_from b c).
Proof. intros. unfold extend_from. symmetry. apply app_assoc. Qed.
Print Assumptions C02_extend_assoc.

(** the constructors keep layer lists well formed *)
Theorem C02_extend_from_wf :
  forall (B : Type) (a b : list (layer B)),
    wf a -> wf b -> fits (extend_from a b) -> wf (extend_from a b).
Proof.
  unfold wf, extend_from. intros B a b [Ha _] [Hb _] Hf. split; auto.
  rewrite rev_app_distr. apply wf_r_app; auto.
Qed.
Print Assumptions C02_extend_from_wf.

Theorem C02_push_layer_wf :
  forall (B : Type) (a : list (layer B)) fs ls asr,
    wf a -> NoDup (map fst fs) -> fits (push_layer a (LObj fs ls asr)) -> wf (push_layer a (LObj fs ls asr)).
Proof.
  unfold wf, push_layer. intros B a fs ls asr [Ha _] Hn Hf. split; auto.
  rewrite rev_app_distr. simpl. auto.
Qed.
Print Assumptions C02_push_layer_wf.

Theorem C02_remove_key_wf :
  forall (B : Type) (o : list (layer B)) (k : name),
    wf o -> fits (remove_key o k) -> wf (remove_key o k).
Proof.
  unfold wf, remove_key. intros B o k [Ho _] Hf. split; auto.
  rewrite rev_app_distr. simpl. repeat split; auto.
  - constructor; [simpl; tauto|constructor].
  - rewrite Nat2N.id. rewrite <- (rev_length o). apply laminar_all; auto.
Qed.
Print Assumptions C02_remove_key_wf.

Theorem C02_wfb_sound :
  forall (B : Type) (cores : list (layer B)), wfb cores = true -> wf cores.
Proof. exact @wfb_wf. Qed.
Print Assumptions C02_wfb_sound.

(** std.objectRemoveKey, stated on the SPEC recursion (no well-formedness needed).
    sup + std.objectRemoveKey(o, k): k is exactly as in sup alone. *)
Theorem C02_remove_key_hides :
  forall (B V : Type) (ev : nat -> B -> res V) (add : V -> V -> res V)
    (sup o : list (layer B)) (k : name),
    let r := sup ++ remove_key o k in
    lookup_spec ev add r k (length r) = lookup_spec ev add sup k (length sup)
    /\ has_spec r k (length r) = has_spec sup k (length sup)
    /\ vis_spec r k (length r) = vis_spec sup k (length sup).
Proof. intros B V ev add sup o k r. apply spec_of_seen, seen_remove_key. Qed.
Print Assumptions C02_remove_key_hides.

(** to every lookup of k that starts above it, the removed object's layers are as good as empty *)
Theorem C02_remove_key_invisible_above :
  forall (B V : Type) (ev : nat -> B -> res V) (add : V -> V -> res V)
    (sup o above : list (layer B)) (k : name),
    Forall (no_omit_of k) above ->
    let r := sup ++ remove_key o k ++ above in
    let r' := sup ++ repeat blank (S (length o)) ++ above in
    lookup_spec ev add r k (length r) = lookup_spec ev add r' k (length r')
    /\ has_spec r k (length r) = has_spec r' k (length r')
    /\ vis_spec r k (length r) = vis_spec r' k (length r').
Proof.
  intros B V ev add sup o above k HF r r'. apply spec_of_seen. unfold r, r'.
  rewrite !app_assoc, !(rev_app_distr _ above). apply seen_r_above; [| |apply Forall_rev, HF].
  - rewrite !rev_length, !app_length. unfold remove_key. rewrite app_length, repeat_length. simpl. lia.
  - rewrite seen_remove_key, rev_app_distr, rev_repeat. symmetry. apply seen_r_blanks.
Qed.
Print Assumptions C02_remove_key_invisible_above.

(** every other name is untouched *)
Theorem C02_remove_key_others :
  forall (B V : Type) (ev : nat -> B -> res V) (add : V -> V -> res V)
    (o : list (layer B)) (k f : name), f <> k ->
    let r := remove_key o k in
    lookup_spec ev add r f (length r) = lookup_spec ev add o f (length o)
    /\ has_spec r f (length r) = has_spec o f (length o)
    /\ vis_spec r f (length r) = vis_spec o f (length o).
Proof.
  intros B V ev add o k f Hne r. apply spec_of_seen. unfold r, remove_key. rewrite rev_app_distr.
  simpl app. cbn [seen_r mem existsb]. apply N.eqb_neq in Hne. rewrite Hne. reflexivity.
Qed.
Print Assumptions C02_remove_key_others.

(** a later layer re-introduces k; a `k+:` there finds nothing to add to *)
Theorem C02_remove_key_reintroduce :
  forall (B V : Type) (ev : nat -> B -> res V) (add : V -> V -> res V)
    (o : list (layer B)) (k : name) (m : member B) ls asr,
    let r := push_layer (remove_key o k) (LObj [(k, m)] ls asr) in
    lookup_spec ev add r k (length r) = bind (ev (S (length o)) (m_body m)) (fun b => Ok (Some b))
    /\ has_spec r k (length r) = true.
Proof.
  intros B V ev add o k m ls asr r. unfold lookup_spec, has_spec. rewrite upto_all, lookup_r_seen, has_r_seen.
  unfold r, push_layer. rewrite rev_app_distr. cbn [rev app seen_r assoc]. rewrite N.eqb_refl.
  pose proof (seen_remove_key [] o k) as E. cbn [rev app seen_r] in E. rewrite E.
  cbn [read has_of]. rewrite Bool.andb_false_r, rev_length. unfold remove_key.
  rewrite app_length, Nat.add_comm. auto.
Qed.
Print Assumptions C02_remove_key_reintroduce.

(** std.objectFields / objectFieldsAll, and the field order of manifestation and == *)
Theorem C02_fields_refines :
  forall (B : Type) (cores : list (layer B)) (hid : bool),
    wf cores -> fields_ex cores hid = fields_spec cores hid.
Proof. exact @fields_refines. Qed.
Print Assumptions C02_fields_refines.

Theorem C02_fields_sorted :
  forall (B : Type) (cores : list (layer B)) (hid : bool),
    Sorted.StronglySorted N.lt (fields_ex cores hid).
Proof. intros. apply sort_ssorted. apply nodup_map_filter. apply fields_visibility_nodup. Qed.
Print Assumptions C02_fields_sorted.

(** The chain-program interpreter gives the same result (value, error kind or fuel exhaustion) over the
    IMPL loops and over the SPEC recursion; unconditional, because both check [wfb] dynamically
    and fail alike where it fails (C02_*_wf: kept true under [fits] and distinct names in a literal). *)
Theorem C02_eval_refines :
  forall n g F e, eval impl_ops n g F e = eval spec_ops n g F e.
Proof.
  induction n; intros; [reflexivity|]. cbn [eval]. apply step_eq. auto.
Qed.
Print Assumptions C02_eval_refines.

Theorem C02_manifest_refines :
  forall n v, manifest impl_ops n v = manifest spec_ops n v.
Proof.
  induction n; intros; [reflexivity|]. cbn [manifest].
  apply manifest_step_eq; auto. apply C02_eval_refines.
Qed.
Print Assumptions C02_manifest_refines.

(** everything the correspondence check asks of a program *)
Theorem C02_run_probe_refines :
  forall n e ns, run_probe impl_ops n e ns = run_probe spec_ops n e ns.
Proof.
  intros. unfold run_probe. rewrite C02_eval_refines. apply bind_ext. intros [| | |o]; auto.
  rewrite C02_manifest_refines, !ops_fields_eq. f_equal. f_equal.
  - apply map_ext. intro f. rewrite (obj_index_eq _ _ (C02_eval_refines n)).
    apply bind_ext. apply C02_manifest_refines.
  - apply map_ext. intro f. rewrite ops_vis_eq. reflexivity.
  - apply map_ext. intro f. apply ops_has_eq.
Qed.
Print Assumptions C02_run_probe_refines.

