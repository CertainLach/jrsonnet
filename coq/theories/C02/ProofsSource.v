(** C02 — the functions translated from obj/mod.rs + obj/oop.rs (Gen/GenObj.v) are the hand model. *)
From Coq Require Import List ZArith NArith Lia.
From JrV Require Import C02.Model C02.Proofs Gen.GenObj C02.ModelSource.
Import ListNotations.
Open Scope N_scope.

Lemma g_sat_sub_1 : forall a, g_sat_sub a 1 = sat_dec a.
Proof. intros; unfold g_sat_sub, sat_dec; lia. Qed.

Section Translated.
Context {B V : Type}.
Variable ev : nat -> B -> res V.
Variable add : V -> V -> res V.

Lemma get_after_eq : forall fa st skip,
  gen_get_idx_walk_after add fa st skip = get_finish add (LDone fa st).
Proof.
  intros fa st skip. unfold gen_get_idx_walk_after, get_finish, g_last, g_is_empty.
  destruct fa as [f|], st as [|s st]; try reflexivity.
  destruct (rev_nonempty s st) as (x & r & ->). reflexivity.
Qed.

(* the translated loop inlines the code after the loop, hence [get_finish] *)
Lemma get_loop_eq : forall rl key fa st skip,
  gen_get_idx_walk_loop ev add rl key fa st skip = bind (get_loop ev rl key fa st skip) (get_finish add).
Proof.
  induction rl as [|l below IH]; intros key fa st skip.
  - cbn [gen_get_idx_walk_loop get_loop bind]. apply get_after_eq.
  - cbn [gen_get_idx_walk_loop get_loop]. rewrite bind_assoc. apply bind_ext.
    intros [v|v|n|]; cbv zeta; rewrite ?g_sat_sub_1; [| |apply IH..].
    + destruct fa, (skip =? 0); cbn [g_is_none bind]; rewrite ?IH, ?get_after_eq; reflexivity.
    + destruct fa, (skip =? 0); cbn [g_is_none]; apply IH.
Qed.

Lemma has_loop_eq : forall (rl : list (layer B)) key skip,
  gen_has_field_include_hidden_idx_loop rl key skip = has_loop rl key skip.
Proof.
  induction rl as [|l below IH]; intros key skip; [reflexivity|].
  cbn [gen_has_field_include_hidden_idx_loop has_loop]. cbv zeta.
  destruct (has_field_include_hidden_core l key); [destruct (skip =? 0)| |];
    rewrite ?g_sat_sub_1, ?IH; reflexivity.
Qed.

Lemma vis_loop_eq : forall (rl : list (layer B)) key ex skip,
  gen_field_visibility_idx_loop rl key ex skip = vis_loop rl key ex skip.
Proof.
  induction rl as [|l below IH]; intros key ex skip; [reflexivity|].
  cbn [gen_field_visibility_idx_loop vis_loop]. cbv zeta.
  destruct (field_visibility_core l key) as [[]|n|]; destruct (skip =? 0);
    rewrite ?g_sat_sub_1, ?IH; reflexivity.
Qed.

Lemma fv_step_eq : forall oi d e, gen_fv_step oi d e = fv_step oi d e.
Proof.
  intros oi [ou ev0] e. unfold gen_fv_step, fv_step. cbv zeta.
  destruct e as [[]|n]; cbn [omitted_until exists_visible]; try reflexivity;
    destruct ev0 as [[]|]; cbn [g_is_none is_some negb]; destruct (ou <=? oi); reflexivity.
Qed.

Lemma map_upsert_ext : forall (f g : fvdata -> fvdata) out k dflt,
  (forall d, f d = g d) -> map_upsert out k dflt f = map_upsert out k dflt g.
Proof.
  intros f g out k dflt H. induction out as [|[k' d] r IH]; cbn [map_upsert].
  - now rewrite H.
  - destruct (k =? k'); [now rewrite H | now rewrite IH].
Qed.

Lemma fold_left_ext : forall {A C} (f g : A -> C -> A) l a,
  (forall a b, f a b = g a b) -> fold_left f l a = fold_left g l a.
Proof. intros A C f g l. induction l as [|x l IH]; intros a H; cbn; [reflexivity|]. rewrite H. now apply IH. Qed.

Lemma fv_layer_eq : forall oi out (l : layer B), gen_fv_layer oi out l = fv_layer oi out l.
Proof.
  intros. unfold gen_fv_layer, fv_layer, gen_fv_default. apply fold_left_ext.
  intros a b. apply map_upsert_ext. intros d. apply fv_step_eq.
Qed.

Lemma fv_loop_eq : forall (rl : list (layer B)) oi out, gen_fv_loop rl oi out = fv_loop rl oi out.
Proof.
  induction rl as [|l below IH]; intros oi out; [reflexivity|].
  cbn [gen_fv_loop fv_loop]. cbv zeta. rewrite fv_layer_eq. unfold gen_fv_next. cbv zeta. apply IH.
Qed.

Lemma fields_visibility_eq : forall (cores : list (layer B)),
  gen_fields_visibility cores = fields_visibility cores.
Proof. intros. unfold gen_fields_visibility, fields_visibility. now rewrite fv_loop_eq. Qed.

Lemma fields_ex_eq : forall (cores : list (layer B)) hid, gen_fields_ex cores hid = fields_ex cores hid.
Proof. intros. unfold gen_fields_ex, fields_ex. now rewrite fields_visibility_eq. Qed.

End Translated.

(** non-vacuity: a well-formed list with a +: chain over a removal and hidden/unhide shadowing *)
Example ex_cores_wf : wf ex_cores.
Proof. apply wfb_wf. vm_compute. reflexivity. Qed.
Example ex_get : gen_get_idx_walk ex_ev ex_add ex_cores 0 4 = Ok (Some 111%Z)
              /\ gen_get_idx_walk ex_ev ex_add ex_cores 1 4 = Ok (Some 7%Z)
              /\ gen_get_idx_walk ex_ev ex_add ex_cores 1 3 = Ok None
              /\ gen_get_idx_walk ex_ev ex_add ex_cores 1 2 = Ok (Some 5%Z)
              /\ gen_get_idx_walk ex_ev ex_add ex_cores 2 4 = Ok None.
Proof. vm_compute. repeat split. Qed.
Example ex_get_order :    (* + is not commutative on lists: the fold order is observable *)
  gen_get_idx_walk (fun _ (z : Z) => Ok [z]) (fun a b => Ok (a ++ b)) ex_cores 0 4 = Ok (Some [1; 10; 100]%Z).
Proof. vm_compute. reflexivity. Qed.
Example ex_has : gen_has_field_include_hidden_idx ex_cores 1 3 = false
              /\ gen_has_field_include_hidden_idx ex_cores 1 2 = true
              /\ gen_has_field_include_hidden_idx ex_cores 1 4 = true.
Proof. vm_compute. repeat split. Qed.
Example ex_vis : gen_field_visibility_idx ex_cores 0 4 = Some VisHidden
              /\ gen_field_visibility_idx ex_cores 0 3 = Some VisNormal
              /\ gen_field_visibility_idx ex_cores 1 4 = Some VisUnhide
              /\ gen_field_visibility_idx ex_cores 1 3 = None
              /\ gen_field_visibility_idx ex_cores 1 2 = Some VisHidden.
Proof. vm_compute. repeat split. Qed.
Example ex_fields : gen_fields_ex ex_cores false = [1] /\ gen_fields_ex ex_cores true = [0; 1]
                 /\ gen_fields_ex (firstn 3 ex_cores) true = [0].
Proof. vm_compute. repeat split. Qed.
Example ex_ctor : gen_remove_key (gen_extend_from [LObj [(0, Member false VisNormal 1%Z)] [] []]
                                                  [LObj [(1, Member false VisNormal 2%Z)] [] []]) 1
                  = [LObj [(0, Member false VisNormal 1%Z)] [] []; LObj [(1, Member false VisNormal 2%Z)] [] [];
                     LOmit [1] 2].
Proof. reflexivity. Qed.
