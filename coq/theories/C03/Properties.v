(** C03 — the memo-cell kernel; last, Sem's trace log does not depend on the fuel. *)
From Coq Require Import List Arith Bool.
From JrV Require Sem.Syntax Sem.Interp Sem.Mono.
From JrV Require Import C03.Model C03.Proofs.
Import ListNotations.

(** whatever the closures do, no closure is started twice *)
Theorem C03_cell_at_most_once :
  forall fuel (b : bodies) n cs st' log',
    force_all fuel b cs (repeat Waiting n) [] = (st', log') -> NoDup log'.
Proof. exact at_most_once. Qed.
Print Assumptions C03_cell_at_most_once.

(** the log lists exactly the started cells; finished and running cells stay; the log only grows *)
Theorem C03_force_invariant :
  forall fuel b c st log o st' log',
    Inv st log -> force fuel b c st log = (o, st', log') ->
    Inv st' log' /\ stable st st' /\ extends log log'.
Proof. exact force_inv. Qed.
Print Assumptions C03_force_invariant.

Theorem C03_finished_forever :
  forall fuel b c st log o st' log',
    Inv st log -> force fuel b c st log = (o, st', log') ->
    forall x s, nth_error st x = Some s -> finished s = true -> nth_error st' x = Some s.
Proof. exact finished_forever. Qed.
Print Assumptions C03_finished_forever.

Theorem C03_no_rerun :
  forall fuel b c st log,
    (exists s, nth_error st c = Some s /\ finished s = true) ->
    exists o, force (S fuel) b c st log = (o, st, log) /\ (o = OK \/ o = ERR).
Proof. exact forced_again_no_rerun. Qed.
Print Assumptions C03_no_rerun.

Theorem C03_reentrant_is_infinite_recursion :
  forall fuel b c st log,
    nth_error st c = Some Pending -> force (S fuel) b c st log = (INFREC, st, log).
Proof. exact reentrant_is_infrec. Qed.
Print Assumptions C03_reentrant_is_infinite_recursion.

(** the call-by-need SPEC for whole programs is Sem's trace log: a function of the program alone,
    whenever the program is judged *)
Theorem C03_sem_log_fuel_independent :
  forall n m e, n <= m ->
    fst (JrV.Sem.Interp.run n e) <> JrV.Sem.Interp.OErr JrV.Sem.Interp.KFuel ->
    snd (JrV.Sem.Interp.run m e) = snd (JrV.Sem.Interp.run n e).
Proof. intros n m e H1 H2. rewrite (JrV.Sem.Mono.run_fuel_independent n m e H1 H2). reflexivity. Qed.
Print Assumptions C03_sem_log_fuel_independent.
