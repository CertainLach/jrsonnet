(** C03, source tie: a site whose step functions are the model cell's is [Model.force]; the four
    translated sites are such. *)
From Coq Require Import List Bool.
From JrV Require Import C03.Model C03.Proofs Gen.GenMemo C03.ModelSource.
Import ListNotations.

Definition site_ok (P : site) : Prop :=
  (forall s, s_enter P s = cell_enter s) /\ (forall s ok, s_leave P s ok = cell_leave s ok).

Lemma st_of_g_of s : st_of (g_of s) = s.
Proof. destruct s; reflexivity. Qed.

Lemma site_force_is_force P : site_ok P ->
  forall fuel b c st log, site_force P fuel b c st log = force fuel b c st log.
Proof.
  intros [He Hl]. induction fuel as [|f IH]; intros b c st log; [reflexivity|].
  cbn [site_force force]. destruct (nth_error st c) as [s|]; [|reflexivity].
  rewrite He. destruct s; cbn [g_of cell_enter st_of]; try reflexivity.
  set (rs1 := fix rs (sc : list nat) (st : state) (log : list nat) : out * state * list nat :=
               match sc with
               | [] => (OK, st, log)
               | x :: t => match site_force P f b x st log with
                           | (OK, st', log') => rs t st' log'
                           | r => r
                           end
               end).
  set (rs2 := fix rs (s : list nat) (st : state) (log : list nat) : out * state * list nat :=
               match s with
               | [] => (OK, st, log)
               | x :: t => match force f b x st log with
                           | (OK, st', log') => rs t st' log'
                           | r => r
                           end
               end).
  assert (Hrs : forall sc st1 log1, rs1 sc st1 log1 = rs2 sc st1 log1).
  { induction sc as [|x t IHs]; intros st1 log1; [reflexivity|].
    cbn [rs1 rs2]. fold rs1. fold rs2. rewrite IH.
    destruct (force f b x st1 log1) as [[o sta] loga]. destruct o; auto. }
  rewrite Hrs. destruct (rs2 (fst (b c)) (set_nth st c Pending) (c :: log)) as [[o st2] log2].
  destruct o; try reflexivity; rewrite Hl; cbn [cell_leave ret_out st_of].
  - destruct (snd (b c)); reflexivity.
  - reflexivity.
  - reflexivity.
Qed.

Lemma site_call_is_force P : site_ok P ->
  forall g fuel b c st log,
    site_call P g fuel b c st log =
    if negb (s_gate P) || g then force fuel b c st log else (ERR, st, log).
Proof.
  intros H g fuel b c st log. unfold site_call. rewrite (site_force_is_force P H).
  destruct (s_gate P), g; reflexivity.
Qed.

Lemma site_call_all_is_force_all P : site_ok P ->
  forall fuel b cs st log,
    site_call_all P fuel b cs st log = force_all fuel b (passing P cs) st log.
Proof.
  intros H fuel b. induction cs as [|[c g] t IH]; intros st log; [reflexivity|].
  cbn [site_call_all]. rewrite (site_call_is_force P H). unfold passing. cbn [filter snd].
  destruct (negb (s_gate P) || g); cbn [map fst force_all].
  - destruct (force fuel b c st log) as [[o st1] log1]. apply IH.
  - apply IH.
Qed.

(** the theorems of C03/Properties.v, for every site that is the model cell *)
Lemma site_at_most_once P : site_ok P ->
  forall fuel b n cs st' log',
    site_call_all P fuel b cs (repeat Waiting n) [] = (st', log') -> NoDup log'.
Proof.
  intros H fuel b n cs st' log' E. rewrite (site_call_all_is_force_all P H) in E.
  exact (at_most_once _ _ _ _ _ _ E).
Qed.

Lemma site_finished_forever P : site_ok P ->
  forall g fuel b c st log o st' log',
    Inv st log -> site_call P g fuel b c st log = (o, st', log') ->
    forall x s, nth_error st x = Some s -> finished s = true -> nth_error st' x = Some s.
Proof.
  intros H g fuel b c st log o st' log' HI E. rewrite (site_call_is_force P H) in E.
  destruct (negb (s_gate P) || g).
  - exact (finished_forever _ _ _ _ _ _ _ _ HI E).
  - injection E as <- <- <-. auto.
Qed.

Lemma site_no_rerun P : site_ok P ->
  forall fuel b c st log,
    (exists s, nth_error st c = Some s /\ finished s = true) ->
    exists o, site_call P true (S fuel) b c st log = (o, st, log) /\ (o = OK \/ o = ERR).
Proof.
  intros H fuel b c st log Hs. rewrite (site_call_is_force P H), orb_true_r.
  exact (forced_again_no_rerun _ _ _ _ _ Hs).
Qed.

Lemma site_reentrant P : site_ok P ->
  forall fuel b c st log,
    nth_error st c = Some Pending -> site_call P true (S fuel) b c st log = (INFREC, st, log).
Proof.
  intros H fuel b c st log Hs. rewrite (site_call_is_force P H), orb_true_r.
  exact (reentrant_is_infrec _ _ _ _ _ Hs).
Qed.

(** get_lazy: that the cells finished in [st0] are the same in [st] is what [stable] gives for every
    history in between *)
Lemma site_lazy_is_force P lazy : site_ok P -> (forall s, lazy s = cell_lazy s) ->
  forall fuel b c st0 st log,
    (forall s, nth_error st0 c = Some s -> finished s = true -> nth_error st c = Some s) ->
    (nth_error st0 c = None -> nth_error st c = None) ->
    site_lazy_force P lazy (S fuel) b c st0 st log = force (S fuel) b c st log.
Proof.
  intros H Hz fuel b c st0 st log Hst Hnone. unfold site_lazy_force.
  destruct (nth_error st0 c) as [s0|] eqn:E0.
  - rewrite Hz. destruct s0; cbn [g_of cell_lazy].
    + apply (site_force_is_force P H).
    + apply (site_force_is_force P H).
    + cbn [force]. rewrite (Hst Computed eq_refl eq_refl). reflexivity.
    + cbn [force]. rewrite (Hst Errored eq_refl eq_refl). reflexivity.
  - cbn [force]. rewrite (Hnone eq_refl). reflexivity.
Qed.

Lemma thunk_ok : site_ok site_thunk.
Proof. split; [intros []|intros [] []]; reflexivity. Qed.
Lemma exprarr_ok : site_ok site_exprarr.
Proof. split; [intros []|intros [] []]; reflexivity. Qed.
Lemma mapped_ok : site_ok site_mapped.
Proof. split; [intros []|intros [] []]; reflexivity. Qed.
Lemma obj_ok : site_ok site_obj.
Proof. split; [intros []|intros [] []]; reflexivity. Qed.

Lemma exprarr_lazy_ok : forall s, gen_exprarr_lazy s = cell_lazy s.
Proof. intros []; reflexivity. Qed.
Lemma mapped_lazy_ok : forall s, gen_mapped_lazy s = cell_lazy s.
Proof. intros []; reflexivity. Qed.

Lemma ungated_call_is_force P : site_ok P -> s_gate P = false ->
  forall g fuel b c st log, site_call P g fuel b c st log = force fuel b c st log.
Proof. intros H Hg g fuel b c st log. rewrite (site_call_is_force P H), Hg. reflexivity. Qed.

Lemma gated_call_is_force P : site_ok P -> s_gate P = true ->
  forall g fuel b c st log,
    site_call P g fuel b c st log = if g then force fuel b c st log else (ERR, st, log).
Proof. intros H Hg g fuel b c st log. rewrite (site_call_is_force P H), Hg. reflexivity. Qed.

(** non-vacuity: the thunk site on the history of Proofs.cells_example *)
Example site_example :
  let b := fun c => match c with 0 => ([1; 2; 1], true) | 1 => ([2], true) | _ => ([], false) end in
  site_call_all site_thunk 10 b [(0, true); (1, true); (2, false); (0, true)] (repeat Waiting 3) []
  = ([Errored; Errored; Errored], [2; 1; 0]).
Proof. reflexivity. Qed.

Example site_obj_gate_example :
  let b := fun c => match c with 0 => ([1], true) | _ => ([], true) end in
  site_call_all site_obj 10 b [(0, false); (1, true); (0, true); (0, false)] (repeat Waiting 2) []
  = ([Computed; Computed], [0; 1]).
Proof. reflexivity. Qed.

Example site_lazy_example :
  let b := fun c => ([], true) in
  site_lazy_force site_exprarr gen_exprarr_lazy 3 b 0 [Waiting] [Computed] [0] = (OK, [Computed], [0])
  /\ site_lazy_force site_mapped gen_mapped_lazy 3 b 0 [Waiting] [Waiting] [] = (OK, [Computed], [0]).
Proof. split; reflexivity. Qed.
