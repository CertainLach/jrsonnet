(** C03, whole-interpreter part: non-vacuity examples for the theorems of PropertiesSem.v. *)
From Coq Require Import List ZArith NArith.
From JrV Require Import Sem.Syntax Sem.Interp Sem.Store Sem.Needed.
Import ListNotations.

(** local x = std.trace("L9", 1 + 2); [x, x] *)
Definition ex_prog : expr :=
  ELocal [(1%N, ETrace 9 (EBin BAdd (ENum 1) (ENum 2)))] (EArr [EVar 1%N; EVar 1%N]).

Definition ex_s1 : store := snd (eval 50 [] no_octx ex_prog empty_store).   (* array built, nothing forced *)
Definition ex_s2 : store := snd (force 50 1 ex_s1).                         (* element 0 forced: x runs *)
Definition ex_s3 : store := snd (force 50 2 ex_s2).                         (* element 1 forced: x is shared *)

Example ex_history : sem_reach empty_store ex_s1 /\ sem_reach ex_s1 ex_s2 /\ sem_reach ex_s2 ex_s3 /\
                     sem_reach ex_s1 ex_s3.
Proof.
  assert (H12 : sem_reach ex_s1 ex_s2) by (apply (sem_reach_one _ (force 50 1)), sf_force).
  assert (H23 : sem_reach ex_s2 ex_s3) by (apply (sem_reach_one _ (force 50 2)), sf_force).
  repeat split; auto.
  - apply (sem_reach_one _ (eval 50 [] no_octx ex_prog)), sf_eval.
  - exact (sem_reach_trans _ _ _ H12 H23).
Qed.

(** cells: x, element 0, element 1; x runs in the first force only, the label 9 is logged once *)
Example ex_states :
  map cell_rank (cells ex_s1) = [0; 0; 0] /\ log ex_s1 = [] /\
  nth_error (cells ex_s2) 0 = Some (CDone (VNum 3)) /\ map cell_rank (cells ex_s2) = [2; 2; 0] /\
  log ex_s2 = [9%N] /\
  nth_error (cells ex_s3) 0 = Some (CDone (VNum 3)) /\ map cell_rank (cells ex_s3) = [2; 2; 2] /\
  log ex_s3 = [9%N] /\
  force 50 1 ex_s1 = (Ok (VNum 3), ex_s2) /\ force 7 0 ex_s3 = (Ok (VNum 3), ex_s3).
Proof. vm_compute. repeat split; reflexivity. Qed.

(** local x = std.trace("L4", error ""); [x, x]: the failure is stored and answered again *)
Definition ex_fail_prog : expr :=
  ELocal [(1%N, ETrace 4 (EError (EStr [])))] (EArr [EVar 1%N; EVar 1%N]).
Definition ex_f1 : store := snd (eval 50 [] no_octx ex_fail_prog empty_store).
Definition ex_f2 : store := snd (force 50 1 ex_f1).
Definition ex_f3 : store := snd (force 50 2 ex_f2).

Example ex_fail_history : sem_reach ex_f2 ex_f3.
Proof. apply (sem_reach_one _ (force 50 2)), sf_force. Qed.

Example ex_fail_states :
  nth_error (cells ex_f2) 0 = Some (CFail KRuntime) /\ log ex_f2 = [4%N] /\
  nth_error (cells ex_f3) 0 = Some (CFail KRuntime) /\ log ex_f3 = [4%N] /\
  fst (force 50 1 ex_f1) = Err KRuntime /\ fst (force 50 2 ex_f2) = Err KRuntime /\
  force 3 0 ex_f3 = (Err KRuntime, ex_f3).
Proof. vm_compute. repeat split; reflexivity. Qed.

(** other work leaves a running cell running; forcing it is infinite recursion *)
Definition ex_p1 : store := with_cells empty_store [CPend; CWait [] no_octx (ETrace 1 (ENum 1))].
Definition ex_p2 : store := snd (force 5 1 ex_p1).

Example ex_pending :
  sem_reach ex_p1 ex_p2 /\ nth_error (cells ex_p1) 0 = Some CPend /\
  cells ex_p2 = [CPend; CDone (VNum 1)] /\ log ex_p2 = [1%N] /\
  force 5 0 ex_p2 = (Err KInfRec, ex_p2).
Proof.
  split; [apply (sem_reach_one _ (force 5 1)), sf_force|]. vm_compute. repeat split; reflexivity.
Qed.

(** two stores that differ in an unstarted cell, a call that does not touch it, and one that does *)
Definition ex_n1 (e : expr) : store :=
  with_cells empty_store [CWait [] no_octx e; CWait [] no_octx (ETrace 2 (ENum 7))].

Example ex_needed :
  sim (eq 0) (ex_n1 (ETrace 5 (EError ENull))) (ex_n1 (ENum 0)) /\
  unstarted (eq 0) (snd (force 9 1 (ex_n1 (ETrace 5 (EError ENull))))) /\
  fst (force 9 1 (ex_n1 (ETrace 5 (EError ENull)))) = Ok (VNum 7) /\
  fst (force 9 1 (ex_n1 (ENum 0))) = Ok (VNum 7) /\
  log (snd (force 9 1 (ex_n1 (ENum 0)))) = [2%N] /\
  ~ unstarted (eq 0) (snd (force 9 0 (ex_n1 (ETrace 5 (EError ENull))))).
Proof.
  split.
  { constructor; try reflexivity. intros [|[|loc]]; [right|left; reflexivity|left; reflexivity].
    split; [reflexivity|]. do 2 eexists. repeat split; reflexivity. }
  split.
  { intros loc c <-. vm_compute. intro H; injection H as <-. reflexivity. }
  repeat split; try (vm_compute; reflexivity).
  intro H. specialize (H 0 (CFail KRuntime) eq_refl). vm_compute in H. specialize (H eq_refl). discriminate.
Qed.
