(** C03 — the reference interpreter Sem (the call-by-need SPEC), for all programs, fuels and stores.
    [sem_fn]: the twelve functions of Sem/Interp.v and their sequential compositions; [sem_reach s s']:
    s' is the store after any history of such calls started in s. *)
From Coq Require Import List ZArith NArith Bool.
From JrV Require Import Sem.Syntax Sem.Interp Sem.Store Sem.Needed Sem.NeededLocals.
Import ListNotations.

(** 1. store extension *)
Theorem C03_sem_every_function_extends_store :
  forall A (m : M A), sem_fn A m -> forall s, ext s (snd (m s)).
Proof. exact sem_fn_ext. Qed.
Print Assumptions C03_sem_every_function_extends_store.

Theorem C03_sem_store_extension : forall s s', sem_reach s s' -> ext s s'.
Proof.
  induction 1 as [s|s s' s'' (A & m & Hm & ->) _ IH]; [apply ext_refl|].
  eapply ext_trans; [apply (C03_sem_every_function_extends_store _ _ Hm)|exact IH].
Qed.
Print Assumptions C03_sem_store_extension.

Theorem C03_sem_cells_never_decrease :
  forall s s', sem_reach s s' -> length (cells s) <= length (cells s').
Proof. intros s s' H. apply ext_length, C03_sem_store_extension, H. Qed.
Print Assumptions C03_sem_cells_never_decrease.

Theorem C03_sem_done_forever :
  forall s s' loc v, sem_reach s s' ->
    nth_error (cells s) loc = Some (CDone v) -> nth_error (cells s') loc = Some (CDone v).
Proof.
  intros s s' loc v H Hc. exact (ext_nonwait_stays _ _ _ _ (C03_sem_store_extension _ _ H) Hc eq_refl).
Qed.
Print Assumptions C03_sem_done_forever.

Theorem C03_sem_failed_forever :
  forall s s' loc k, sem_reach s s' ->
    nth_error (cells s) loc = Some (CFail k) -> nth_error (cells s') loc = Some (CFail k).
Proof.
  intros s s' loc k H Hc. exact (ext_nonwait_stays _ _ _ _ (C03_sem_store_extension _ _ H) Hc eq_refl).
Qed.
Print Assumptions C03_sem_failed_forever.

(** the log is stored most recent first: the old log is a suffix of the new one *)
Theorem C03_sem_log_append_only :
  forall s s', sem_reach s s' -> exists newer, log s' = newer ++ log s.
Proof. intros s s' H. exact (ext_log _ _ (C03_sem_store_extension _ _ H)). Qed.
Print Assumptions C03_sem_log_append_only.

Theorem C03_sem_caches_grow :
  forall s s', sem_reach s s' ->
    (exists newer, fcache s' = newer ++ fcache s) /\ (exists newer, lcache s' = newer ++ lcache s) /\
    next_oid s <= next_oid s'.
Proof. intros s s' H. destruct (C03_sem_store_extension _ _ H) as [_ _ F M O]. auto. Qed.
Print Assumptions C03_sem_caches_grow.

(** 2. the cell protocol Waiting (rank 0) -> Pending (1) -> Done/Failed (2), never back *)
Theorem C03_sem_cell_protocol :
  forall s s' loc c, sem_reach s s' -> nth_error (cells s) loc = Some c ->
    exists c', nth_error (cells s') loc = Some c' /\ cell_le c c' /\
               cell_rank c <= cell_rank c' /\ (cell_rank c = cell_rank c' -> c' = c).
Proof.
  intros s s' loc c H Hc.
  destruct (ext_cells _ _ (C03_sem_store_extension _ _ H) _ _ Hc) as (c' & Hc' & Hle).
  exists c'. destruct (cell_le_rank _ _ Hle). auto.
Qed.
Print Assumptions C03_sem_cell_protocol.

(** only its own [force] finishes a running cell *)
Theorem C03_sem_pending_untouched :
  forall s s' loc, sem_reach s s' ->
    nth_error (cells s) loc = Some CPend -> nth_error (cells s') loc = Some CPend.
Proof. intros s s' loc H. apply ext_pend_stays, C03_sem_store_extension, H. Qed.
Print Assumptions C03_sem_pending_untouched.

Theorem C03_sem_force_stores_result :
  forall n loc s r s', force n loc s = (r, s') ->
    match r with
    | Ok v => nth_error (cells s') loc = Some (CDone v)
    | Err KFuel => True
    | Err k => nth_error (cells s') loc = Some (CFail k) \/
               (k = KInfRec /\ nth_error (cells s) loc = Some CPend /\ s' = s) \/
               (k = KType /\ nth_error (cells s) loc = None /\ s' = s)
    end.
Proof.
  intros n loc s r s' H. change (force_post loc s r s').
  destruct n as [|n]; [cbn in H; injection H as <- <-; exact I|].
  destruct (nth_error (cells s) loc) as [c|] eqn:E.
  2:{ rewrite (force_nocell _ _ _ E) in H. injection H as <- <-. cbn; auto. }
  destruct (is_wait c) eqn:Hw.
  - apply (force_wait_post _ _ _ _ _ _ E Hw (cell_body_ext _ _ _) H).
  - rewrite (force_nonwait _ _ _ _ E Hw) in H. injection H as <- <-.
    destruct c as [| | | |k]; try discriminate; [cbn; auto|exact E|destruct k; cbn; auto].
Qed.
Print Assumptions C03_sem_force_stores_result.

Theorem C03_sem_force_done_is_pure :
  forall n loc v s, nth_error (cells s) loc = Some (CDone v) -> force (S n) loc s = (Ok v, s).
Proof. intros n loc v s H. exact (force_nonwait n loc s _ H eq_refl). Qed.
Print Assumptions C03_sem_force_done_is_pure.

Theorem C03_sem_force_failed_is_pure :
  forall n loc k s, nth_error (cells s) loc = Some (CFail k) -> force (S n) loc s = (Err k, s).
Proof. intros n loc k s H. exact (force_nonwait n loc s _ H eq_refl). Qed.
Print Assumptions C03_sem_force_failed_is_pure.

(** nothing shared runs twice *)
Theorem C03_sem_shared_never_reruns :
  forall s s' loc v n, sem_reach s s' -> nth_error (cells s) loc = Some (CDone v) ->
    force (S n) loc s' = (Ok v, s').
Proof.
  intros s s' loc v n H Hc. apply C03_sem_force_done_is_pure. eapply C03_sem_done_forever; eassumption.
Qed.
Print Assumptions C03_sem_shared_never_reruns.

(** 3. nothing unneeded runs: what a never-started thunk contains influences neither the result, nor
    the log, nor the rest of the final store *)
Theorem C03_sem_unforced_thunk_irrelevant :
  forall (D : nat -> Prop) A (m : M A), sem_fn A m ->
  forall s1 s2 r s1',
    sim D s1 s2 -> m s1 = (r, s1') -> unstarted D s1' ->
    exists s2', m s2 = (r, s2') /\ sim D s1' s2'.
Proof. exact unforced_irrelevant. Qed.
Print Assumptions C03_sem_unforced_thunk_irrelevant.

Theorem C03_sem_unused_local_never_runs :
  forall n ev oc x e e' body s r s',
    eval (S n) ev oc (ELocal [(x, e)] body) s = (r, s') ->
    (exists c, nth_error (cells s') (length (cells s)) = Some c /\ is_wait c = true) ->
    exists s2', eval (S n) ev oc (ELocal [(x, e')] body) s = (r, s2') /\ log s2' = log s' /\
                sim (eq (length (cells s))) s' s2'.
Proof.
  intros n ev oc x e e' body s r s' H (c & Hc & Hw). rewrite eval_local1 in *.
  destruct (unforced_irrelevant (eq (length (cells s))) _ _ (sf_eval n _ oc body) _ _ _ _
              (sim_local1 s (CWait ((x, length (cells s)) :: ev) oc e)
                            (CWait ((x, length (cells s)) :: ev) oc e') eq_refl eq_refl) H)
    as (s2' & H2 & Hs).
  - intros loc cx <- Hx. congruence.
  - exists s2'. split; [exact H2|]. split; [symmetry; apply (sim_log _ _ _ Hs)|exact Hs].
Qed.
Print Assumptions C03_sem_unused_local_never_runs.

Theorem C03_sem_unused_local_never_runs_program :
  forall fuel x e e' body,
    (exists c, nth_error (cells (snd (run_state fuel (ELocal [(x, e)] body)))) 0 = Some c /\ is_wait c = true) ->
    run fuel (ELocal [(x, e')] body) = run fuel (ELocal [(x, e)] body).
Proof.
  intros fuel x e e' body (c & Hc & Hw). rewrite !run_of_state.
  destruct fuel as [|n]; [reflexivity|]. rewrite !run_state_local1 in *.
  set (m := v <- eval n [(x, 0)] no_octx body ;; manifest (S n) v) in *.
  assert (Hm : sem_fn _ m) by (apply sf_bind; [apply sf_eval|intro; apply sf_manifest]).
  destruct (m (with_cells empty_store [CWait [(x, 0)] no_octx e])) as [r s1'] eqn:E1.
  assert (Hs : sim (eq 0) (with_cells empty_store [CWait [(x, 0)] no_octx e])
                          (with_cells empty_store [CWait [(x, 0)] no_octx e']))
    by (apply (sim_local1 empty_store); reflexivity).
  destruct (unforced_irrelevant (eq 0) _ m Hm _ _ _ _ Hs E1) as (s2' & E2 & Hs').
  - intros loc cx <- Hx. cbn [snd] in Hc. congruence.
  - rewrite E2. cbn [fst snd]. rewrite (sim_log _ _ _ Hs'). reflexivity.
Qed.
Print Assumptions C03_sem_unused_local_never_runs_program.

(** bindings with [keep i = false] may be anything, if their thunks still wait at the end *)
Theorem C03_sem_unused_locals_never_run :
  forall (keep : nat -> bool) n ev oc bs bs' body s r s',
    map fst bs' = map fst bs ->
    (forall i, keep i = true -> nth_error bs' i = nth_error bs i) ->
    eval (S n) ev oc (ELocal bs body) s = (r, s') ->
    (forall i, i < length bs -> keep i = false ->
               exists c, nth_error (cells s') (length (cells s) + i) = Some c /\ is_wait c = true) ->
    exists s2', eval (S n) ev oc (ELocal bs' body) s = (r, s2') /\ log s2' = log s'.
Proof.
  intros keep n ev oc bs bs' body s r s' Hn Hk H Hw.
  assert (Hlen : length bs' = length bs) by (rewrite <- (map_length fst bs'), Hn; apply map_length).
  rewrite eval_local in *. rewrite Hn. destruct (has_dup_id (map fst bs)).
  { injection H as <- <-. exists s. auto. }
  assert (Hev : local_env ev bs' (length (cells s)) = local_env ev bs (length (cells s)))
    by (unfold local_env; rewrite Hn, Hlen; reflexivity).
  rewrite Hev. eapply (appended_irrelevant keep); try exact H; try (apply Forall_wait_map; reflexivity).
  - apply sf_eval.
  - rewrite !map_length. exact Hlen.
  - intros i Ek. rewrite !nth_error_map, (Hk i Ek). reflexivity.
  - rewrite map_length. exact Hw.
Qed.
Print Assumptions C03_sem_unused_locals_never_run.

(** likewise the elements of an array literal, whatever is done with it afterwards ([k]) *)
Theorem C03_sem_unread_elements_never_run :
  forall (keep : nat -> bool) n ev oc es es' A (k : value -> M A) s r s',
    (forall v, sem_fn A (k v)) ->
    length es' = length es ->
    (forall i, keep i = true -> nth_error es' i = nth_error es i) ->
    (v <- eval (S n) ev oc (EArr es) ;; k v) s = (r, s') ->
    (forall i, i < length es -> keep i = false ->
               exists c, nth_error (cells s') (length (cells s) + i) = Some c /\ is_wait c = true) ->
    exists s2', (v <- eval (S n) ev oc (EArr es') ;; k v) s = (r, s2') /\ log s2' = log s'.
Proof.
  intros keep n ev oc es es' A k s r s' Hk Hlen Hkeep H Hw.
  unfold bind in *. rewrite eval_arr in *. rewrite Hlen.
  eapply (appended_irrelevant keep); try exact H; try (apply Forall_wait_map; reflexivity).
  - apply Hk.
  - rewrite !map_length. exact Hlen.
  - intros i Ek. rewrite !nth_error_map, (Hkeep i Ek). reflexivity.
  - rewrite map_length. exact Hw.
Qed.
Print Assumptions C03_sem_unread_elements_never_run.
