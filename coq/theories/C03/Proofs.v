(** C03 - the memo cell.  [force_inv]: induction on the fuel, inner induction on the closure's script
    ([Hrs]). *)
From Coq Require Import List Arith.
From JrV Require Import C03.Model.
Import ListNotations.

Lemma set_nth_length {A} (l : list A) i x : length (set_nth l i x) = length l.
Proof. revert i; induction l as [|h t IH]; intros [|i]; cbn; auto. Qed.

Lemma nth_set_nth {A} (l : list A) : forall i j x,
  nth_error (set_nth l i x) j =
  if Nat.eqb i j then (match nth_error l j with Some _ => Some x | None => None end)
  else nth_error l j.
Proof.
  induction l as [|h t IH]; intros i j x.
  - cbn. destruct j; destruct (Nat.eqb i _); reflexivity.
  - destruct i as [|i], j as [|j]; cbn [set_nth nth_error Nat.eqb]; try reflexivity. apply IH.
Qed.

(** invariant: the log lists exactly the started cells, without repetition *)
Definition Inv (st : state) (log : list nat) : Prop :=
  NoDup log /\ forall c, In c log <-> exists s, nth_error st c = Some s /\ started s = true.

Definition stable (st st' : state) : Prop :=
  length st' = length st /\
  (forall c s, nth_error st c = Some s -> finished s = true -> nth_error st' c = Some s) /\
  (forall c, nth_error st c = Some Pending -> nth_error st' c = Some Pending).

Lemma stable_refl st : stable st st.
Proof. repeat split; eauto. Qed.

Lemma stable_trans a b c : stable a b -> stable b c -> stable a c.
Proof.
  intros (L1 & F1 & S1) (L2 & F2 & S2). split; [congruence|]. split.
  - intros x s H Hf. apply F2; auto.
  - intros x H. auto.
Qed.

(** a cell that was Waiting may be overwritten, now or later *)
Lemma stable_set_waiting st st2 c s' :
  nth_error st c = Some Waiting -> stable st st2 -> stable st (set_nth st2 c s').
Proof.
  intros Hc (L & F & P). split; [rewrite set_nth_length; exact L|]. split.
  - intros x sx Hx Hfx. rewrite nth_set_nth. destruct (Nat.eqb_spec c x) as [<-|]; [|auto].
    rewrite Hc in Hx. injection Hx as <-. discriminate.
  - intros x Hx. rewrite nth_set_nth. destruct (Nat.eqb_spec c x) as [<-|]; [|auto].
    rewrite Hc in Hx. discriminate.
Qed.

Definition extends (log log' : list nat) : Prop := exists pre, log' = pre ++ log.
Lemma extends_refl l : extends l l. Proof. exists []. reflexivity. Qed.
Lemma extends_trans a b c : extends a b -> extends b c -> extends a c.
Proof. intros [p ->] [q ->]. exists (q ++ p). rewrite app_assoc. reflexivity. Qed.

Lemma inv_start st log c :
  Inv st log -> nth_error st c = Some Waiting -> Inv (set_nth st c Pending) (c :: log).
Proof.
  intros [Hnd Hin] Hc. split.
  - constructor; [|exact Hnd]. intros H. apply Hin in H. destruct H as (s & Hs & Hst).
    rewrite Hc in Hs. injection Hs as <-. discriminate.
  - intros x. rewrite nth_set_nth. cbn [In]. destruct (Nat.eqb_spec c x) as [->|Hne].
    + rewrite Hc. split; [eauto|auto].
    + rewrite Hin. split; [intros [E|H]; [congruence|exact H]|auto].
Qed.

Lemma inv_finish st log c s s' :
  Inv st log -> nth_error st c = Some s -> started s = true -> started s' = true ->
  Inv (set_nth st c s') log.
Proof.
  intros [Hnd Hin] Hc Hs Hs'. split; [exact Hnd|]. intros x. rewrite nth_set_nth, Hin.
  destruct (Nat.eqb_spec c x) as [->|Hne]; [|reflexivity]. rewrite Hc. split; eauto.
Qed.

Theorem force_inv fuel b : forall c st log o st' log',
  Inv st log -> force fuel b c st log = (o, st', log') ->
  Inv st' log' /\ stable st st' /\ extends log log'.
Proof.
  induction fuel as [|f IH]; intros c st log o st' log' HI H.
  - cbn in H. injection H as <- <- <-. auto using stable_refl, extends_refl.
  - cbn [force] in H. destruct (nth_error st c) as [[| | |]|] eqn:Hc;
      try (injection H as <- <- <-; auto using stable_refl, extends_refl).
    set (rs := fix rs (s : list nat) (st : state) (log : list nat) : out * state * list nat :=
               match s with
               | [] => (OK, st, log)
               | x :: t => match force f b x st log with
                           | (OK, st', log') => rs t st' log'
                           | r => r
                           end
               end) in *.
    assert (Hrs : forall s st1 log1 o2 st2 log2,
               Inv st1 log1 -> rs s st1 log1 = (o2, st2, log2) ->
               Inv st2 log2 /\ stable st1 st2 /\ extends log1 log2).
    { induction s as [|x t IHs]; intros st1 log1 o2 st2 log2 HI1 Hr.
      - cbn in Hr. injection Hr as <- <- <-. auto using stable_refl, extends_refl.
      - cbn [rs] in Hr. fold rs in Hr. destruct (force f b x st1 log1) as [[o1 sta] loga] eqn:Hf.
        destruct (IH _ _ _ _ _ _ HI1 Hf) as (HIa & Hsa & Hea).
        destruct o1; try (injection Hr as <- <- <-; auto).
        destruct (IHs _ _ _ _ _ HIa Hr) as (HIb & Hsb & Heb).
        split; [exact HIb|]. split; [eapply stable_trans; eauto|eapply extends_trans; eauto]. }
    pose proof (inv_start st log c HI Hc) as HI1.
    destruct (rs (fst (b c)) (set_nth st c Pending) (c :: log)) as [[o2 st2] log2] eqn:Hr.
    destruct (Hrs _ _ _ _ _ _ HI1 Hr) as (HI2 & Hs2 & He2).
    assert (Hc2 : nth_error st2 c = Some Pending).
    { destruct Hs2 as (_ & _ & Hp). apply Hp. rewrite nth_set_nth, Nat.eqb_refl, Hc. reflexivity. }
    assert (Hext : extends log log2).
    { eapply extends_trans; [|exact He2]. exists [c]. reflexivity. }
    assert (Hbase : stable st st2).
    { eapply stable_trans; [apply (stable_set_waiting st st c Pending Hc (stable_refl st))|exact Hs2]. }
    assert (Hfin : forall s', started s' = true ->
              Inv (set_nth st2 c s') log2 /\ stable st (set_nth st2 c s') /\ extends log log2).
    { intros s' Hs'. split; [eapply inv_finish; eauto|]. split; [|exact Hext].
      apply stable_set_waiting; assumption. }
    destruct o2.
    + destruct (snd (b c)); injection H as <- <- <-; apply Hfin; reflexivity.
    + injection H as <- <- <-. apply Hfin. reflexivity.
    + injection H as <- <- <-. apply Hfin. reflexivity.
    + injection H as <- <- <-. split; [exact HI2|]. split; [exact Hbase|exact Hext].
Qed.

Lemma inv_init n : Inv (repeat Waiting n) [].
Proof.
  split; [constructor|]. intros c. split; [intros []|].
  intros (s & Hs & Hst). apply nth_error_In, repeat_spec in Hs. subst. discriminate.
Qed.

Theorem force_all_inv fuel b : forall cs st log st' log',
  Inv st log -> force_all fuel b cs st log = (st', log') ->
  Inv st' log' /\ stable st st' /\ extends log log'.
Proof.
  induction cs as [|c t IH]; intros st log st' log' HI H.
  - cbn in H. injection H as <- <-. auto using stable_refl, extends_refl.
  - cbn [force_all] in H. destruct (force fuel b c st log) as [[o sta] loga] eqn:Hf.
    destruct (force_inv _ _ _ _ _ _ _ _ HI Hf) as (HIa & Hsa & Hea).
    destruct (IH _ _ _ _ HIa H) as (HIb & Hsb & Heb).
    split; [exact HIb|]. split; [eapply stable_trans; eauto|eapply extends_trans; eauto].
Qed.

Theorem at_most_once fuel b n cs st' log' :
  force_all fuel b cs (repeat Waiting n) [] = (st', log') -> NoDup log'.
Proof.
  intros H. destruct (force_all_inv fuel b cs _ _ _ _ (inv_init n) H) as ((Hnd & _) & _). exact Hnd.
Qed.

Theorem finished_forever fuel b c st log o st' log' :
  Inv st log -> force fuel b c st log = (o, st', log') ->
  forall x s, nth_error st x = Some s -> finished s = true -> nth_error st' x = Some s.
Proof.
  intros HI H. destruct (force_inv _ _ _ _ _ _ _ _ HI H) as (_ & (_ & F & _) & _). exact F.
Qed.

Theorem forced_again_no_rerun fuel b c st log :
  (exists s, nth_error st c = Some s /\ finished s = true) ->
  exists o, force (S fuel) b c st log = (o, st, log) /\ (o = OK \/ o = ERR).
Proof.
  intros (s & Hs & Hf). cbn [force]. rewrite Hs. destruct s; try discriminate; eauto.
Qed.

Theorem reentrant_is_infrec fuel b c st log :
  nth_error st c = Some Pending -> force (S fuel) b c st log = (INFREC, st, log).
Proof. intros H. cbn [force]. rewrite H. reflexivity. Qed.

(** non-vacuity: cell 0 runs 1, 2, 1; cell 1 runs 2; cell 2 fails; each closure starts once *)
Example cells_example :
  let b := fun c => match c with 0 => ([1; 2; 1], true) | 1 => ([2], true) | _ => ([], false) end in
  force_all 10 b [0; 1; 2; 0] (repeat Waiting 3) [] = ([Errored; Errored; Errored], [2; 1; 0]).
Proof. reflexivity. Qed.
