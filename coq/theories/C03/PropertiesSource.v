(** C03 - the four memo sites, as translated from the source text (Gen/GenMemo.v), are the model cell,
    so the cell theorems of Properties.v hold for each. *)
From Coq Require Import List Arith Bool.
From JrV Require Import C03.Model C03.Proofs Gen.GenMemo C03.ModelSource C03.ProofsSource.
Import ListNotations.

(** Thunk / MemoizedClosureThunk::get (val.rs): the translated step functions are the model cell's,
    hence a call of the site is [Model.force] on the store *)
Theorem C03_site_is_model_cell_thunk :
    (forall s, gen_thunk_enter s = cell_enter s) /\
    (forall s ok, gen_thunk_leave s ok = cell_leave s ok) /\
    (forall g fuel b c st log, site_call site_thunk g fuel b c st log = force fuel b c st log).
Proof. exact (conj (proj1 thunk_ok) (conj (proj2 thunk_ok) (ungated_call_is_force site_thunk thunk_ok eq_refl))). Qed.
Print Assumptions C03_site_is_model_cell_thunk.

Theorem C03_site_at_most_once_thunk :
    forall fuel (b : bodies) n cs st' log',
    site_call_all site_thunk fuel b cs (repeat Waiting n) [] = (st', log') -> NoDup log'.
Proof. exact (site_at_most_once site_thunk thunk_ok). Qed.
Print Assumptions C03_site_at_most_once_thunk.

Theorem C03_site_finished_forever_thunk :
    (forall g fuel b c st log o st' log',
      Inv st log -> site_call site_thunk g fuel b c st log = (o, st', log') ->
      forall x s, nth_error st x = Some s -> finished s = true -> nth_error st' x = Some s) /\
    (forall fuel b c st log,
      (exists s, nth_error st c = Some s /\ finished s = true) ->
      exists o, site_call site_thunk true (S fuel) b c st log = (o, st, log) /\ (o = OK \/ o = ERR)).
Proof. exact (conj (site_finished_forever site_thunk thunk_ok) (site_no_rerun site_thunk thunk_ok)). Qed.
Print Assumptions C03_site_finished_forever_thunk.

Theorem C03_site_reentrant_is_infinite_recursion_thunk :
    forall fuel b c st log,
    nth_error st c = Some Pending -> site_call site_thunk true (S fuel) b c st log = (INFREC, st, log).
Proof. exact (site_reentrant site_thunk thunk_ok). Qed.
Print Assumptions C03_site_reentrant_is_infinite_recursion_thunk.

(** ExprArray::get (arr/spec.rs) *)
Theorem C03_site_is_model_cell_exprarr :
    (forall s, gen_exprarr_enter s = cell_enter s) /\
    (forall s ok, gen_exprarr_leave s ok = cell_leave s ok) /\
    (forall g fuel b c st log, site_call site_exprarr g fuel b c st log = force fuel b c st log).
Proof. exact (conj (proj1 exprarr_ok) (conj (proj2 exprarr_ok) (ungated_call_is_force site_exprarr exprarr_ok eq_refl))). Qed.
Print Assumptions C03_site_is_model_cell_exprarr.

Theorem C03_site_at_most_once_exprarr :
    forall fuel (b : bodies) n cs st' log',
    site_call_all site_exprarr fuel b cs (repeat Waiting n) [] = (st', log') -> NoDup log'.
Proof. exact (site_at_most_once site_exprarr exprarr_ok). Qed.
Print Assumptions C03_site_at_most_once_exprarr.

Theorem C03_site_finished_forever_exprarr :
    (forall g fuel b c st log o st' log',
      Inv st log -> site_call site_exprarr g fuel b c st log = (o, st', log') ->
      forall x s, nth_error st x = Some s -> finished s = true -> nth_error st' x = Some s) /\
    (forall fuel b c st log,
      (exists s, nth_error st c = Some s /\ finished s = true) ->
      exists o, site_call site_exprarr true (S fuel) b c st log = (o, st, log) /\ (o = OK \/ o = ERR)).
Proof. exact (conj (site_finished_forever site_exprarr exprarr_ok) (site_no_rerun site_exprarr exprarr_ok)). Qed.
Print Assumptions C03_site_finished_forever_exprarr.

Theorem C03_site_reentrant_is_infinite_recursion_exprarr :
    forall fuel b c st log,
    nth_error st c = Some Pending -> site_call site_exprarr true (S fuel) b c st log = (INFREC, st, log).
Proof. exact (site_reentrant site_exprarr exprarr_ok). Qed.
Print Assumptions C03_site_reentrant_is_infinite_recursion_exprarr.

(** ExprArray::get_lazy (arr/spec.rs): a handle made in store st0 and forced in a later store in which
    the cells finished in st0 are unchanged answers like the model cell forced at that moment *)
Theorem C03_site_lazy_is_get_exprarr :
    forall fuel b c st0 st log,
    (forall s, nth_error st0 c = Some s -> finished s = true -> nth_error st c = Some s) ->
    (nth_error st0 c = None -> nth_error st c = None) ->
    site_lazy_force site_exprarr gen_exprarr_lazy (S fuel) b c st0 st log = force (S fuel) b c st log.
Proof. exact (site_lazy_is_force site_exprarr gen_exprarr_lazy exprarr_ok exprarr_lazy_ok). Qed.
Print Assumptions C03_site_lazy_is_get_exprarr.

(** MappedArray::get (arr/spec.rs) *)
Theorem C03_site_is_model_cell_mapped :
    (forall s, gen_mapped_enter s = cell_enter s) /\
    (forall s ok, gen_mapped_leave s ok = cell_leave s ok) /\
    (forall g fuel b c st log, site_call site_mapped g fuel b c st log = force fuel b c st log).
Proof. exact (conj (proj1 mapped_ok) (conj (proj2 mapped_ok) (ungated_call_is_force site_mapped mapped_ok eq_refl))). Qed.
Print Assumptions C03_site_is_model_cell_mapped.

Theorem C03_site_at_most_once_mapped :
    forall fuel (b : bodies) n cs st' log',
    site_call_all site_mapped fuel b cs (repeat Waiting n) [] = (st', log') -> NoDup log'.
Proof. exact (site_at_most_once site_mapped mapped_ok). Qed.
Print Assumptions C03_site_at_most_once_mapped.

Theorem C03_site_finished_forever_mapped :
    (forall g fuel b c st log o st' log',
      Inv st log -> site_call site_mapped g fuel b c st log = (o, st', log') ->
      forall x s, nth_error st x = Some s -> finished s = true -> nth_error st' x = Some s) /\
    (forall fuel b c st log,
      (exists s, nth_error st c = Some s /\ finished s = true) ->
      exists o, site_call site_mapped true (S fuel) b c st log = (o, st, log) /\ (o = OK \/ o = ERR)).
Proof. exact (conj (site_finished_forever site_mapped mapped_ok) (site_no_rerun site_mapped mapped_ok)). Qed.
Print Assumptions C03_site_finished_forever_mapped.

Theorem C03_site_reentrant_is_infinite_recursion_mapped :
    forall fuel b c st log,
    nth_error st c = Some Pending -> site_call site_mapped true (S fuel) b c st log = (INFREC, st, log).
Proof. exact (site_reentrant site_mapped mapped_ok). Qed.
Print Assumptions C03_site_reentrant_is_infinite_recursion_mapped.

(** MappedArray::get_lazy (arr/spec.rs) *)
Theorem C03_site_lazy_is_get_mapped :
    forall fuel b c st0 st log,
    (forall s, nth_error st0 c = Some s -> finished s = true -> nth_error st c = Some s) ->
    (nth_error st0 c = None -> nth_error st c = None) ->
    site_lazy_force site_mapped gen_mapped_lazy (S fuel) b c st0 st log = force (S fuel) b c st log.
Proof. exact (site_lazy_is_force site_mapped gen_mapped_lazy mapped_ok mapped_lazy_ok). Qed.
Print Assumptions C03_site_lazy_is_get_mapped.

(** ObjValue::get_idx, the object field cache (obj/mod.rs): the same when the gate
    (`self.run_assertions()?`) passes; when it fails the call returns the error and touches nothing *)
Theorem C03_site_is_model_cell_obj :
    (forall s, gen_obj_enter s = cell_enter s) /\
    (forall s ok, gen_obj_leave s ok = cell_leave s ok) /\
    (forall g fuel b c st log,
      site_call site_obj g fuel b c st log = if g then force fuel b c st log else (ERR, st, log)).
Proof. exact (conj (proj1 obj_ok) (conj (proj2 obj_ok) (gated_call_is_force site_obj obj_ok eq_refl))). Qed.
Print Assumptions C03_site_is_model_cell_obj.

Theorem C03_site_at_most_once_obj :
    forall fuel (b : bodies) n cs st' log',
    site_call_all site_obj fuel b cs (repeat Waiting n) [] = (st', log') -> NoDup log'.
Proof. exact (site_at_most_once site_obj obj_ok). Qed.
Print Assumptions C03_site_at_most_once_obj.

Theorem C03_site_finished_forever_obj :
    (forall g fuel b c st log o st' log',
      Inv st log -> site_call site_obj g fuel b c st log = (o, st', log') ->
      forall x s, nth_error st x = Some s -> finished s = true -> nth_error st' x = Some s) /\
    (forall fuel b c st log,
      (exists s, nth_error st c = Some s /\ finished s = true) ->
      exists o, site_call site_obj true (S fuel) b c st log = (o, st, log) /\ (o = OK \/ o = ERR)).
Proof. exact (conj (site_finished_forever site_obj obj_ok) (site_no_rerun site_obj obj_ok)). Qed.
Print Assumptions C03_site_finished_forever_obj.

Theorem C03_site_reentrant_is_infinite_recursion_obj :
    forall fuel b c st log,
    nth_error st c = Some Pending -> site_call site_obj true (S fuel) b c st log = (INFREC, st, log).
Proof. exact (site_reentrant site_obj obj_ok). Qed.
Print Assumptions C03_site_reentrant_is_infinite_recursion_obj.

Theorem C03_site_obj_gate_failed_touches_nothing :
    forall fuel b c st log, site_call site_obj false fuel b c st log = (ERR, st, log).
Proof. reflexivity. Qed.
Print Assumptions C03_site_obj_gate_failed_touches_nothing.

