(** C11 — property theorems over ModelMore.v; helper lemmas are in ProofsMore.v. *)
From Coq Require Import List NArith ZArith Bool Lia.
From JrV Require Import Common.Utf8 C11.Model C11.ModelMore.
From JrV Require Import C11.ProofsFind C11.ProofsStr C11.ProofsNum C11.ProofsMore.
From JrV Require Gen.GenStr.
Import ListNotations.

(** str::to_ascii_uppercase, a per-BYTE map over the UTF-8 text = the per-code-point definition *)
Theorem C11_asciiUpper_refines :
  forall s, upper_impl (encode s) = encode (upper_spec s).
Proof. (* the method number read from the source selects [map up_byte] by computation *)
  intros s. exact (map_up_encode s).
Qed.
Print Assumptions C11_asciiUpper_refines.

(** the same for to_ascii_lowercase *)
Theorem C11_asciiLower_refines :
  forall s, lower_impl (encode s) = encode (lower_spec s).
Proof. intros s. exact (map_low_encode s). Qed.
Print Assumptions C11_asciiLower_refines.

(** only a..z change, each to the letter 32 below *)
Theorem C11_asciiUpper_pointwise :
  forall s, Forall2 (fun x y => y = x \/ (97 <= x /\ x <= 122 /\ y = x - 32))%N s (upper_spec s).
Proof. intros s. induction s as [|c s IH]; cbn; constructor; auto. apply up1_cases. Qed.
Print Assumptions C11_asciiUpper_pointwise.

Theorem C11_asciiLower_pointwise :
  forall s, Forall2 (fun x y => y = x \/ (65 <= x /\ x <= 90 /\ y = x + 32))%N s (lower_spec s).
Proof. intros s. induction s as [|c s IH]; cbn; constructor; auto. apply low1_cases. Qed.
Print Assumptions C11_asciiLower_pointwise.

Theorem C11_asciiUpper_laws :
  forall s, length (upper_spec s) = length s /\ upper_spec (upper_spec s) = upper_spec s /\
    lower_spec (upper_spec s) = lower_spec s /\
    (forallb scalar s = true -> forallb scalar (upper_spec s) = true).
Proof. exact upper_laws. Qed.
Print Assumptions C11_asciiUpper_laws.

Theorem C11_asciiLower_laws :
  forall s, length (lower_spec s) = length s /\ lower_spec (lower_spec s) = lower_spec s /\
    upper_spec (lower_spec s) = upper_spec s /\
    (forallb scalar s = true -> forallb scalar (lower_spec s) = true).
Proof. exact lower_laws. Qed.
Print Assumptions C11_asciiLower_laws.

(** str::eq_ignore_ascii_case on the bytes = asciiLower(a) == asciiLower(b) on code points *)
Theorem C11_equalsIgnoreCase_refines :
  forall a b, forallb scalar a = true -> forallb scalar b = true ->
    eq_ic_impl (encode a) (encode b) = eq_ic_spec a b.
Proof. exact eq_ic_refines. Qed.
Print Assumptions C11_equalsIgnoreCase_refines.

Theorem C11_equalsIgnoreCase_laws :
  forall a, eq_ic_spec a a = true /\ eq_ic_spec (upper_spec a) a = true /\
    (forall b, eq_ic_spec a b = eq_ic_spec b a).
Proof.
  intros a.
  unfold eq_ic_spec. repeat split.
  - now apply list_eqb_eq.
  - apply list_eqb_eq. apply upper_laws.
  - intros b. apply eq_true_iff_eq. rewrite !list_eqb_eq. split; congruence.
Qed.
Print Assumptions C11_equalsIgnoreCase_laws.

(** String::is_empty on the bytes = std.length(s) == 0 *)
Theorem C11_isEmpty_refines :
  forall s, is_empty_impl (encode s) = is_empty_spec s.
Proof. intros s. unfold is_empty_impl. rewrite is_nil_encode. now destruct s. Qed.
Print Assumptions C11_isEmpty_refines.

(** chars().count() = number of code points *)
Theorem C11_length_refines :
  forall s, forallb scalar s = true -> length_impl (encode s) = length s.
Proof.
  intros s.
  unfold length_impl. induction s as [|c s IH]; [reflexivity|]. cbn [forallb]. intros H.
  apply andb_true_iff in H as [Hc Hs]. cbn [encode flat_map]. fold (encode s).
  rewrite filter_app, app_length, IH by assumption.
  destruct (enc1_shape c) as (h & t & -> & Hh & Ht).
  cbn [filter]. rewrite Hh. cbn [negb length]. now rewrite filter_all_cont.
Qed.
Print Assumptions C11_length_refines.

(** the chars() iterator = makeArray(length(s), i => s[i]) *)
Theorem C11_stringChars_refines :
  forall s, forallb scalar s = true ->
    chars_impl (encode s) = map encode (chars_ref s) /\ concat (chars_ref s) = s.
Proof.
  intros s H. rewrite chars_ref_eq. unfold chars_impl, chars_spec. rewrite lossy_encode by assumption. split.
  - rewrite map_map. apply map_ext. intros c. cbn. now rewrite app_nil_r.
  - clear H. induction s as [|c s IH]; [reflexivity|]. cbn. now rewrite IH.
Qed.
Print Assumptions C11_stringChars_refines.

(** is_empty guards + the trim_* method read from the source = the recursive definition *)
Theorem C11_lstripChars_refines :
  forall s cs, lstrip_chars_impl s cs = lstrip_spec s cs.
Proof. intros s cs. apply strip_builtin_guard; [reflexivity | reflexivity | apply lstrip_no_chars]. Qed.
Print Assumptions C11_lstripChars_refines.

(** the same for rstripChars *)
Theorem C11_rstripChars_builtin_refines :
  forall s cs, rstrip_chars_impl s cs = rstrip_spec s cs.
Proof.
  intros s cs.
  apply strip_builtin_guard; [|reflexivity|apply rstrip_no_chars].
  intros s' cs'. exact (rstrip_refines cs' s').
Qed.
Print Assumptions C11_rstripChars_builtin_refines.

(** the same for stripChars *)
Theorem C11_stripChars_builtin_refines :
  forall s cs, strip_chars_impl s cs = strip_spec s cs.
Proof.
  intros s cs.
  apply strip_builtin_guard; [|reflexivity|].
  - intros s' cs'. exact (strip_refines cs' s').
  - unfold strip_spec. now rewrite rstrip_no_chars, lstrip_no_chars.
Qed.
Print Assumptions C11_stripChars_builtin_refines.

(** trim_matches with the closure's character set = stripChars(s, the documented white space) *)
Theorem C11_trim_refines :
  forall s, trim_impl s = trim_spec s.
Proof.
  intros s.
  change (trim_impl s) with (strip_impl s GenStr.trim_filter). rewrite strip_refines. unfold trim_spec, strip_spec.
  assert (E : forall c, memb c GenStr.trim_filter = memb c trim_chars) by (apply memb_same; now vm_compute).
  now rewrite (rstrip_ext _ _ E), (lstrip_ext _ _ E).
Qed.
Print Assumptions C11_trim_refines.

(** s = a ++ kept ++ b: a, b stripped characters only, kept neither starts nor ends with one *)
Theorem C11_strip_shape :
  forall cs s, exists a b, s = a ++ strip_spec s cs ++ b /\
    forallb (fun c => memb c cs) a = true /\ forallb (fun c => memb c cs) b = true /\
    (match strip_spec s cs with c :: _ => memb c cs = false | [] => True end) /\
    (match rev (strip_spec s cs) with c :: _ => memb c cs = false | [] => True end).
Proof.
  intros cs s.
  rewrite <- strip_refines. unfold strip_impl, rstrip_impl.
  destruct (lstrip_shape cs s) as (a & Ea & Ha & Hh).
  destruct (lstrip_shape cs (rev (lstrip_spec s cs))) as (b & Eb & Hb & Hl).
  set (m := lstrip_spec s cs) in *. set (k := lstrip_spec (rev m) cs) in *.
  exists a, (rev b). assert (Em : m = rev k ++ rev b).
  { rewrite <- rev_app_distr, <- Eb. now rewrite rev_involutive. }
  repeat split.
  - now rewrite <- Em.
  - assumption.
  - rewrite forallb_forall in *. intros x Hx. apply Hb. now apply in_rev.
  - destruct (rev k) as [|c r] eqn:Ek; [exact I|]. rewrite Em in Hh. exact Hh.
  - rewrite rev_involutive. exact Hl.
Qed.
Print Assumptions C11_strip_shape.

(** str::replace, leftmost non-overlapping search on the BYTES = join(to, split(s, from)) *)
Theorem C11_strReplace_refines :
  forall s from to, forallb scalar s = true -> forallb scalar from = true ->
    str_replace_impl s from to = option_map encode (replace_spec s from to).
Proof. exact str_replace_refines. Qed.
Print Assumptions C11_strReplace_refines.

(** replace(QUOTE, REPL) on the bytes + insert/push of QUOTE, constants read from the source *)
Theorem C11_escapeStringBash_refines :
  forall s, forallb scalar s = true -> esc_bash_impl s = encode (esc_bash_spec s).
Proof. intros s H. now rewrite esc_bash_gen_refines, esc_bash_gen_spec. Qed.
Print Assumptions C11_escapeStringBash_refines.

(** replace(dollar, two dollars) on the bytes *)
Theorem C11_escapeStringDollars_refines :
  forall s, forallb scalar s = true -> esc_dollars_impl s = encode (esc_dollars_spec s).
Proof. intros s Hs. unfold esc_dollars_impl. now rewrite replace_bytes_char. Qed.
Print Assumptions C11_escapeStringDollars_refines.

(** escape_string_xml_buf's position/split_at/push_str loop over the BYTES = the per-code-point
    definition; unreachable!() is never reached *)
Theorem C11_escapeStringXml_refines :
  forall s, esc_xml_impl (encode s) = Some (encode (esc_xml_spec s)).
Proof.
  intros s.
  rewrite esc_xml_bytes. f_equal. change (esc_xml_spec s) with (flat_map xml1_spec s). apply bytewise.
  - apply xml_byte_low.
  - intros b H. unfold xml_byte. now rewrite xml_class_ascii.
  - apply xml1_plain.
Qed.
Print Assumptions C11_escapeStringXml_refines.

(** escape_string_json_buf (C05's model) on the bytes = the std.jsonnet definition, for strings
    WITHOUT U+007F..U+009F *)
Theorem C11_escapeStringJson_refines :
  forall s, has_del_c1 s = false -> esc_json_impl s = Some (encode (esc_json_spec s)).
Proof. exact esc_json_refines. Qed.
Print Assumptions C11_escapeStringJson_refines.

(** ... and not for all: DEL and the C1 controls stay raw (known finding C11-escapeStringJson-del-c1-raw) *)
Theorem C11_escapeStringJson_refuted :
  exists s, forallb scalar s = true /\ esc_json_impl s <> Some (encode (esc_json_spec s)).
Proof. exists [127%N]. split; [reflexivity|]. intros H. vm_compute in H. discriminate. Qed.
Print Assumptions C11_escapeStringJson_refuted.

(** reading $$ as $ recovers the argument *)
Theorem C11_escapeStringDollars_roundtrip :
  forall s, undollar (esc_dollars_spec s) = Some s.
Proof.
  intros s.
  unfold esc_dollars_spec. induction s as [|c s IH]; [reflexivity|]. cbn [flat_map].
  destruct (N.eqb_spec c 36) as [->|n].
  - cbn [app undollar]. rewrite N.eqb_refl, IH. reflexivity.
  - cbn [app undollar]. apply N.eqb_neq in n. rewrite n, IH. reflexivity.
Qed.
Print Assumptions C11_escapeStringDollars_roundtrip.

(** resolving the five predefined entities recovers the argument *)
Theorem C11_escapeStringXml_roundtrip :
  forall s, unxml (esc_xml_spec s) = Some s.
Proof. intros s. unfold unxml. apply unxml_f_esc. lia. Qed.
Print Assumptions C11_escapeStringXml_roundtrip.

(** POSIX quote removal on the output recovers the argument *)
Theorem C11_escapeStringBash_roundtrip :
  forall s, sh_unquote ShOut (esc_bash_spec s) = Some s.
Proof.
  intros s.
  unfold esc_bash_spec. change (sh_unquote ShOut (39%N :: ?x)) with (sh_unquote ShSingle x).
  apply (sh_single_esc s).
Qed.
Print Assumptions C11_escapeStringBash_roundtrip.

(** strip_prefix('-') + parse_nat::<10>: exact for a decimal numeral below 2^53 in magnitude *)
Theorem C11_parseInt_exact :
  forall s z, int_spec s = Some z -> (Z.abs z < 2 ^ 53)%Z -> parse_int_impl s = RInt z.
Proof. exact parse_int_exact. Qed.
Print Assumptions C11_parseInt_exact.

(** everything else is an error *)
Theorem C11_parseInt_rejects :
  forall s, int_spec s = None -> parse_int_impl s = RErr.
Proof.
  intros s.
  destruct (parse_int_split s) as (neg & r & -> & ->).
  destruct (nat_spec 10 r) as [n|] eqn:E; [discriminate|]. intros _.
  destruct r as [|d r']; [reflexivity|]. now rewrite nat_impl_bad; [|left|].
Qed.
Print Assumptions C11_parseInt_rejects.

(** the same for parseOctal / parseHex with the bases read from the source *)
Theorem C11_parseOctal_parseHex :
  forall s,
    (forall v, nat_spec 8 s = Some v -> (v < 2 ^ 53)%N -> parse_octal_impl s = RInt (Z.of_N v)) /\
    (nat_spec 8 s = None -> parse_octal_impl s = RErr) /\
    (forall v, nat_spec 16 s = Some v -> (v < 2 ^ 53)%N -> parse_hex_impl s = RInt (Z.of_N v)) /\
    (nat_spec 16 s = None -> parse_hex_impl s = RErr).
Proof.
  intros s.
  unfold parse_octal_impl, parse_hex_impl. repeat split; intros.
  - now rewrite (nat_impl_exact GenStr.parse_octal_base s v); [|left|..].
  - now rewrite (nat_impl_bad GenStr.parse_octal_base s); [|left|].
  - now rewrite (nat_impl_exact GenStr.parse_hex_base s v); [|right|..].
  - now rewrite (nat_impl_bad GenStr.parse_hex_base s); [|right|].
Qed.
Print Assumptions C11_parseOctal_parseHex.

