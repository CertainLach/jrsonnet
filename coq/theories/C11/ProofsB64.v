(** C11 — base64 (RFC 4648) lemmas. *)
From Coq Require Import List NArith Bool Lia.
From JrV Require Import Common.Utf8 C11.Model C11.ProofsFind.
Import ListNotations.
Local Open Scope N_scope.

Definition bytes_ok (bs : list N) : bool := forallb (fun b => b <? 256) bs.

Lemma list_ind3 (P : list N -> Prop) :
  P [] -> (forall a, P [a]) -> (forall a b, P [a; b]) ->
  (forall a b c r, P r -> P (a :: b :: c :: r)) -> forall l, P l.
Proof.
  intros H0 H1 H2 H3. fix IH 1.
  intros [|a [|b [|c r]]];
    [exact H0 | exact (H1 a) | exact (H2 a b) | exact (H3 a b c r (IH r))].
Qed.

(** table 1 of RFC 4648, entry by entry *)
Lemma b64_val_char v : v < 64 -> b64_val (b64_char v) = Some v.
Proof.
  intros Hv.
  pose (ok v := match b64_val (b64_char v) with Some w => w =? v | None => false end).
  assert (T : ok v = true) by (apply (range_forallb ok 0 64); [now vm_compute | apply N.le_0_l | exact Hv]).
  unfold ok in T. destruct (b64_val (b64_char v)) as [w|]; [|discriminate].
  apply N.eqb_eq in T. now subst w.
Qed.

Lemma b64_char_not_pad v : v < 64 -> b64_char v <> pad.
Proof. intros Hv E. apply b64_val_char in Hv. rewrite E in Hv. discriminate. Qed.

Lemma is_b64_char_char v : v < 64 -> is_b64_char (b64_char v) = true.
Proof. intros. unfold is_b64_char. now rewrite b64_val_char. Qed.

(** 3 x 8 bits as 4 x 6: a sextet [h * m + l] with [l < m] has quotient [h] and remainder [l]
    ([div_mul_add], [mod_mul_add] of Utf8.v) *)
Lemma byte_parts x : x < 256 ->
  x / 4 < 64 /\ x mod 4 < 4 /\ x / 16 < 16 /\ x mod 16 < 16 /\ x / 64 < 4 /\ x mod 64 < 64.
Proof. intros H. repeat split; (now apply N.div_lt_upper_bound) || now apply N.mod_lt. Qed.

Lemma div_mod_eq x m : x / m * m + x mod m = x.
Proof. rewrite N.mul_comm. symmetry. apply N.div_mod'. Qed.

Lemma quad_enc a b c : a < 256 -> b < 256 -> c < 256 ->
  quad (b64_char (a / 4)) (b64_char ((a mod 4) * 16 + b / 16))
       (b64_char ((b mod 16) * 4 + c / 64)) (b64_char (c mod 64)) = Some [a; b; c].
Proof.
  intros Ha%byte_parts Hb%byte_parts Hc%byte_parts. unfold quad.
  rewrite !b64_val_char by lia. rewrite !div_mul_add, !mod_mul_add by lia.
  now rewrite !div_mod_eq.
Qed.

Lemma b64_encode_nil_inv bs : b64_encode bs = [] -> bs = [].
Proof. destruct bs as [|a [|b [|c r]]]; cbn [b64_encode]; intros H; [reflexivity|discriminate..]. Qed.

Lemma b64_decode_cons4 c1 c2 c3 c4 r : r <> [] ->
  b64_decode (c1 :: c2 :: c3 :: c4 :: r) =
  match quad c1 c2 c3 c4, b64_decode r with
  | Some q, Some t => Some (q ++ t)
  | _, _ => None
  end.
Proof. destruct r; [congruence|reflexivity]. Qed.

Lemma bytes_ok_cons a bs : bytes_ok (a :: bs) = true <-> a < 256 /\ bytes_ok bs = true.
Proof. unfold bytes_ok. cbn [forallb]. now rewrite andb_true_iff, N.ltb_lt. Qed.

Lemma enc1_bytes_ok c : scalar c = true -> bytes_ok (enc1 c) = true.
Proof.
  intros Hc%scalar_le. unfold bytes_ok, enc1.
  assert (M : forall x, 128 + x mod 64 <? 256 = true).
  { intros x. apply N.ltb_lt. pose proof (N.mod_lt x 64). lia. }
  destruct (N.ltb_spec c 128) as [H1|H1]; [|destruct (N.ltb_spec c 2048) as [H2|H2];
    [|destruct (N.ltb_spec c 65536) as [H3|H3]]]; cbn [forallb]; rewrite ?M.
  - now rewrite (proj2 (N.ltb_lt c 256)) by lia.
  - pose proof (N.div_lt_upper_bound c 64 32). now rewrite (proj2 (N.ltb_lt _ 256)) by lia.
  - pose proof (N.div_lt_upper_bound c 4096 16). now rewrite (proj2 (N.ltb_lt _ 256)) by lia.
  - pose proof (N.div_lt_upper_bound c 262144 16). now rewrite (proj2 (N.ltb_lt _ 256)) by lia.
Qed.

Lemma encode_bytes_ok s : forallb scalar s = true -> bytes_ok (encode s) = true.
Proof.
  induction s as [|c s IH]; [reflexivity|]. cbn [forallb encode flat_map]. intros [Hc Hs]%andb_true_iff.
  unfold bytes_ok. rewrite forallb_app. apply andb_true_iff.
  split; [exact (enc1_bytes_ok c Hc) | exact (IH Hs)].
Qed.
