(** C11 — helpers shared by the C11 proof files, then std.findSubstr: the walk over char_indices()
    with byte bound and byte slices is the code-point definition. *)
From Coq Require Import List NArith Bool Lia Arith.
From JrV Require Import Common.Utf8 C11.Model.
Import ListNotations.

Lemma range_reflect lo hi c : reflect (lo <= c <= hi)%N ((lo <=? c) && (c <=? hi))%N.
Proof. apply iff_reflect. now rewrite andb_true_iff, !N.leb_le. Qed.

Lemma range_forallb (P : N -> bool) lo n :
  forallb P (map N.of_nat (seq lo n)) = true ->
  forall b, (N.of_nat lo <= b)%N -> (b < N.of_nat (lo + n))%N -> P b = true.
Proof.
  intros H b H1 H2. rewrite forallb_forall in H. apply H.
  apply in_map_iff. exists (N.to_nat b). split; [lia|]. apply in_seq. lia.
Qed.

Lemma list_eqb_eq a : forall b, list_eqb a b = true <-> a = b.
Proof.
  induction a as [|x a IH]; intros [|y b]; cbn [list_eqb]; try (split; [discriminate|congruence]).
  - tauto.
  - rewrite andb_true_iff, N.eqb_eq, IH. split; [intros [-> ->]; reflexivity|].
    intros H; inversion H; auto.
Qed.

Lemma prefixb_iff p : forall s, prefixb p s = true <-> exists x, s = p ++ x.
Proof.
  induction p as [|a p IH]; intros s; cbn [prefixb].
  - split; [intros _; exists s; reflexivity|reflexivity].
  - destruct s as [|b s].
    + split; [discriminate|]. intros [x H]. discriminate.
    + rewrite andb_true_iff, N.eqb_eq, IH. split.
      * intros [-> [x ->]]. exists x. reflexivity.
      * intros [x H]. inversion H; subst. split; [reflexivity|]. exists x. reflexivity.
Qed.

Lemma list_eqb_firstn p : forall s, list_eqb (firstn (length p) s) p = prefixb p s.
Proof.
  induction p as [|a p IH]; intros s; cbn [length firstn].
  - reflexivity.
  - destruct s as [|b s]; cbn [firstn list_eqb prefixb]; [reflexivity|].
    rewrite IH, N.eqb_sym. reflexivity.
Qed.

Lemma prefixb_short p : forall s, length s < length p -> prefixb p s = false.
Proof.
  intros s H. destruct (prefixb p s) eqn:E; [|reflexivity].
  apply prefixb_iff in E as [x ->]. rewrite app_length in H. lia.
Qed.

Lemma prefixb_encode p s : forallb scalar p = true -> forallb scalar s = true ->
  prefixb (encode p) (encode s) = prefixb p s.
Proof.
  intros Hp Hs. apply eq_iff_eq_true. rewrite !prefixb_iff. split.
  - intros [x E]. destruct (encode_prefix_app p s x Hp Hs E) as (b & Eb & _). now exists b.
  - intros [x ->]. exists (encode x). apply encode_app.
Qed.

Lemma skipn_length_app {A} (a b : list A) : skipn (length a) (a ++ b) = b.
Proof. induction a; [reflexivity|assumption]. Qed.

Lemma is_nil_encode s : is_nil (encode s) = is_nil s.
Proof.
  destruct s as [|c s]; [reflexivity|]. cbn [encode flat_map is_nil].
  destruct (enc1 c) eqn:E; [now apply enc1_nonempty in E|reflexivity].
Qed.

Lemma encode_nil_inv s : encode s = [] -> s = [].
Proof. intros H. pose proof (is_nil_encode s) as E. rewrite H in E. now destruct s. Qed.

(** the recursive form both sides are compared with *)
Fixpoint find_rec (pat s : str) (k : nat) : list nat :=
  match s with
  | [] => []
  | c :: r => (if prefixb pat s then [k] else []) ++ find_rec pat r (S k)
  end.

Lemma find_rec_short pat : forall s k, length (encode s) < length (encode pat) -> find_rec pat s k = [].
Proof.
  induction s as [|c r IH]; intros k H; [reflexivity|]. cbn [find_rec].
  destruct (prefixb pat (c :: r)) eqn:E.
  - exfalso. apply prefixb_iff in E as [x E]. rewrite E, encode_app, app_length in H. lia.
  - cbn [app]. apply IH. cbn [encode flat_map] in H. fold (encode r) in H.
    rewrite app_length in H. lia.
Qed.

(** [sb = encode pre ++ encode s], [off] = byte offset of [s]: at such a boundary the slice test is
    [prefixb pat s]; past the last possible start the rest is too short for a match *)
Lemma walk pat : forallb scalar pat = true -> forall s pre k sb off,
  forallb scalar s = true -> sb = encode pre ++ encode s -> off = length (encode pre) ->
  length (encode pat) <= length sb ->
  map fst (filter (fun p => list_eqb (bslice sb (snd p) (snd p + length (encode pat))) (encode pat))
            (enumerate_from k
               (take_while (fun i => i <=? length sb - length (encode pat)) (char_offsets s off))))
  = find_rec pat s k.
Proof.
  intros Hp. induction s as [|c r IH]; intros pre k sb off Hs Esb Eoff Hlen; [reflexivity|].
  cbn [char_offsets take_while].
  assert (Lsb : length sb = off + length (encode (c :: r))) by (subst; apply app_length).
  destruct (Nat.leb_spec off (length sb - length (encode pat))) as [Hle|Hgt].
  - cbn [enumerate_from filter snd].
    assert (T : list_eqb (bslice sb off (off + length (encode pat))) (encode pat)
                = prefixb pat (c :: r)).
    { unfold bslice. replace (off + length (encode pat) - off) with (length (encode pat)) by lia.
      rewrite Esb, Eoff, skipn_length_app, list_eqb_firstn. now apply prefixb_encode. }
    rewrite T. cbn [find_rec forallb] in *. apply andb_true_iff in Hs as [_ Hr].
    rewrite <- (IH (pre ++ [c]) (S k) sb (off + length (enc1 c))); auto.
    + now destruct (prefixb pat (c :: r)).
    + rewrite Esb, encode_app. cbn [encode flat_map]. now rewrite app_nil_r, <- app_assoc.
    + rewrite Eoff, encode_app, app_length. cbn [encode flat_map]. now rewrite app_nil_r.
  - cbn [enumerate_from filter map]. symmetry. apply find_rec_short. lia.
Qed.

Lemma find_impl_rec pat s : pat <> [] -> forallb scalar pat = true -> forallb scalar s = true ->
  find_impl pat s = find_rec pat s 0.
Proof.
  intros Hne Hp Hs. unfold find_impl. rewrite !is_nil_encode.
  replace (is_nil pat) with false by now destruct pat.
  destruct s as [|c r]; [reflexivity|]. cbn [is_nil orb].
  destruct (Nat.ltb_spec (length (encode (c :: r))) (length (encode pat))) as [Hlt|Hge].
  - symmetry. now apply find_rec_short.
  - apply (walk pat Hp (c :: r) [] 0 (encode (c :: r)) 0); auto.
Qed.

Lemma filter_map_S (f : nat -> bool) l : filter f (map S l) = map S (filter (fun i => f (S i)) l).
Proof.
  induction l as [|x l IH]; [reflexivity|]. cbn [map filter]. destruct (f (S x)); cbn [map]; now rewrite IH.
Qed.

Lemma filter_none {A} (f : A -> bool) l : (forall x, In x l -> f x = false) -> filter f l = [].
Proof.
  induction l as [|x l IH]; intros H; [reflexivity|]. cbn [filter].
  rewrite (H x) by now left. apply IH. intros; apply H; now right.
Qed.

Lemma find_rec_filter pat : forall s k,
  find_rec pat s k = map (Nat.add k) (filter (fun i => prefixb pat (skipn i s)) (seq 0 (length s))).
Proof.
  induction s as [|c r IH]; intros k; [reflexivity|].
  cbn [find_rec length seq filter]. change (skipn 0 (c :: r)) with (c :: r).
  rewrite <- seq_shift, filter_map_S. cbn [skipn]. rewrite IH.
  assert (M : map (Nat.add (S k)) (filter (fun i => prefixb pat (skipn i r)) (seq 0 (length r)))
            = map (Nat.add k) (map S (filter (fun i => prefixb pat (skipn i r)) (seq 0 (length r))))).
  { rewrite map_map. apply map_ext. intros; lia. }
  rewrite M. destruct (prefixb pat (c :: r)); cbn [map app]; [rewrite Nat.add_0_r|]; reflexivity.
Qed.

Lemma find_spec_rec pat s : pat <> [] -> find_spec pat s = find_rec pat s 0.
Proof.
  intros Hne. unfold find_spec. destruct pat as [|p0 pat']; [contradiction|]. cbn [is_nil orb].
  set (pat := p0 :: pat') in *.
  destruct s as [|c0 s']; [reflexivity|]. cbn [is_nil]. set (s := c0 :: s') in *.
  destruct (Nat.ltb_spec (length s) (length pat)) as [Hlt|Hge].
  - rewrite find_rec_filter, (filter_none _ (seq 0 (length s))); [reflexivity|].
    intros i _. apply prefixb_short. rewrite skipn_length. lia.
  - rewrite find_rec_filter.
    rewrite (map_ext (Nat.add 0) (fun x => x)) by reflexivity. rewrite map_id.
    rewrite (filter_ext _ (fun i => prefixb pat (skipn i s))) by (intros; apply list_eqb_firstn).
    assert (Hl : length pat >= 1) by (cbn; lia).
    pose proof (seq_app (length s - length pat + 1) (length pat - 1) 0) as Sq.
    cbn [Nat.add] in Sq.
    replace (length s - length pat + 1 + (length pat - 1)) with (length s) in Sq by lia.
    rewrite Sq, filter_app.
    rewrite (filter_none _ (seq (length s - length pat + 1) (length pat - 1))); [now rewrite app_nil_r|].
    intros i Hi. apply in_seq in Hi. apply prefixb_short. rewrite skipn_length. lia.
Qed.

Lemma substr_firstn (s : str) n : substr_spec s 0 n = firstn n s.
Proof.
  unfold substr_spec. rewrite Nat.sub_0_r. revert n.
  induction s as [|x s IH]; intros n.
  - rewrite Nat.min_0_r. now destruct n.
  - destruct n as [|n]; [reflexivity|]. cbn [length Nat.min seq map firstn nth Nat.add].
    f_equal. rewrite <- seq_shift, map_map. rewrite <- IH. apply map_ext. intros a.
    rewrite !Nat.add_0_r. reflexivity.
Qed.

Lemma starts_spec_prefixb a b : starts_spec a b = prefixb b a.
Proof.
  unfold starts_spec. destruct (Nat.ltb_spec (length a) (length b)).
  - symmetry. now apply prefixb_short.
  - rewrite substr_firstn. apply list_eqb_firstn.
Qed.

