(** C11 — parseInt / parseOctal / parseHex: digit classifier and exact accumulation. *)
From Coq Require Import List NArith Bool Lia.
From JrV Require Import C11.Model C11.ProofsFind.
Import ListNotations.
Local Open Scope N_scope.

Inductive digit_class (base c : N) : option N -> Prop :=
| DcDecimal : 48 <= c <= 57 ->
    digit_class base c (if c - 48 <? base then Some (c - 48) else None)
| DcLower : base = 16 -> 97 <= c <= 102 -> digit_class base c (Some (c - 97 + 10))
| DcUpper : base = 16 -> 65 <= c <= 70 -> digit_class base c (Some (c - 65 + 10))
| DcOther : ~ 48 <= c <= 57 -> (base = 16 -> ~ 97 <= c <= 102 /\ ~ 65 <= c <= 70) ->
    digit_class base c None.

Lemma digit_spec_class base c : digit_class base c (digit_spec base c).
Proof.
  unfold digit_spec. destruct (range_reflect 48 57 c) as [D|D]; [now constructor|].
  destruct (N.eqb_spec base 16) as [E|E]; cbn [andb]; [|now constructor].
  destruct (range_reflect 97 102 c) as [L|L]; [now constructor|].
  destruct (range_reflect 65 70 c) as [U|U]; now constructor.
Qed.

Lemma digit_spec_lt base c d : digit_spec base c = Some d -> d < base.
Proof.
  destruct (digit_spec_class base c) as [D | -> L | -> U | _ _].
  - destruct (N.ltb_spec (c - 48) base); [now intros [= <-] | discriminate].
  - intros [= <-]. lia.
  - intros [= <-]. lia.
  - discriminate.
Qed.

(** The checked subtractions are right when no letter is a digit ([base <= 10]) or exactly a..f are:
    a base between, or above 16, admits letters that are not digits of the definition. *)
Lemma digit_agree base c : base <= 10 \/ base = 16 -> digit_impl base c = digit_spec base c.
Proof.
  intros Hb. unfold digit_impl. destruct (digit_spec_class base c) as [D | -> L | -> U | D H].
  - rewrite (proj2 (N.leb_gt 97 c)), (proj2 (N.leb_gt 65 c)), !andb_false_r by lia.
    rewrite (proj2 (N.leb_le 48 c)) by apply D.
    now rewrite (proj2 (N.ltb_lt (c - 48) 10)) by lia.
  - change (10 <? 16) with true. rewrite (proj2 (N.leb_le 97 c)) by apply L. cbn [andb].
    now rewrite (proj2 (N.ltb_lt (c - 97 + 10) 16)) by lia.
  - change (10 <? 16) with true. rewrite (proj2 (N.leb_gt 97 c)), (proj2 (N.leb_le 65 c)) by lia.
    cbn [andb]. now rewrite (proj2 (N.ltb_lt (c - 65 + 10) 16)) by lia.
  - destruct Hb as [Hb | ->].
    + rewrite (proj2 (N.ltb_ge 10 base) Hb). cbn [andb].
      destruct (N.leb_spec 48 c); [destruct (N.ltb_spec (c - 48) 10); [lia|] |];
        cbv zeta; now rewrite N.ltb_irrefl.
    + destruct (H eq_refl) as [L U]. change (10 <? 16) with true. cbn [andb].
      destruct (N.leb_spec 97 c).
      { cbv zeta. now rewrite (proj2 (N.ltb_ge (c - 97 + 10) 16)) by lia. }
      destruct (N.leb_spec 65 c).
      { cbv zeta. now rewrite (proj2 (N.ltb_ge (c - 65 + 10) 16)) by lia. }
      destruct (N.leb_spec 48 c); [destruct (N.ltb_spec (c - 48) 10); [lia|] |]; reflexivity.
Qed.

(** the bases of parseOctal, parseInt, parseHex *)
Lemma parse_bases base : base = 8 \/ base = 10 \/ base = 16 -> base <= 10 \/ base = 16.
Proof. lia. Qed.

Lemma rnd53_small n : n < 2 ^ 53 -> rnd53 n = Some n.
Proof.
  intros H. unfold rnd53. destruct (N.ltb_spec (N.log2 n) 53) as [_|L]; [reflexivity|].
  exfalso. destruct n as [|p]; [cbn in L; lia|]. apply N.log2_lt_pow2 in H; lia.
Qed.

Lemma digits_spec_mono base : forall s acc v, digits_spec base acc s = Some v -> acc <= v.
Proof.
  induction s as [|c r IH]; intros acc v H; cbn [digits_spec] in H.
  - injection H as ->. lia.
  - destruct (digit_spec base c) as [d|] eqn:D; [|discriminate].
    apply digit_spec_lt in D. apply IH in H. nia.
Qed.

Lemma parse_exact base : base <= 10 \/ base = 16 -> forall s acc v,
  digits_spec base acc s = Some v -> v < 2 ^ 53 ->
  parse_nat_impl base (PFin acc) s = PFin v.
Proof.
  intros Hb. induction s as [|c r IH]; intros acc v H Hv; cbn [digits_spec parse_nat_impl] in *.
  - now injection H as ->.
  - rewrite digit_agree by assumption. destruct (digit_spec base c) as [d|]; [|discriminate].
    rewrite rnd53_small; [now apply IH|]. apply digits_spec_mono in H. lia.
Qed.

Lemma parse_bad base : base <= 10 \/ base = 16 -> forall s acc p,
  digits_spec base acc s = None -> parse_nat_impl base p s = PBad.
Proof.
  intros Hb. induction s as [|c r IH]; intros acc p H; cbn [digits_spec parse_nat_impl] in *.
  - discriminate.
  - rewrite digit_agree by assumption. destruct (digit_spec base c) as [d|]; [|reflexivity].
    destruct p as [a| |]; [destruct (rnd53 (base * a + d))|..]; exact (IH _ _ H).
Qed.

Lemma nat_impl_exact base s v : base <= 10 \/ base = 16 ->
  nat_spec base s = Some v -> v < 2 ^ 53 -> nat_impl base s = PFin v.
Proof. intros Hb H Hv. destruct s as [|c r]; [discriminate|]. now apply parse_exact. Qed.

Lemma nat_impl_bad base s : base <= 10 \/ base = 16 ->
  nat_spec base s = None -> nat_impl base s = PBad.
Proof. intros Hb H. destruct s as [|c r]; [reflexivity|]. now apply (parse_bad base Hb _ 0). Qed.
