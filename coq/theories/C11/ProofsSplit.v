(** C11 — UTF-8 self-synchronisation and its consequences: the byte-level search of
    split / splitLimit (str::split, str::splitn) equals the code-point definition; endsWith on
    bytes = on code points. *)
From Coq Require Import List NArith Bool Lia Arith.
From JrV Require Import Common.Utf8 C11.Model C11.ProofsFind C11.ProofsStr.
Import ListNotations.

Lemma encode_head_shape p : p <> [] ->
  exists h t, encode p = h :: t /\ is_cont h = false.
Proof.
  destruct p as [|c p]; [contradiction|]. intros _.
  destruct (enc1_shape c) as (h & t & E & Hh & _).
  exists h, (t ++ encode p). cbn [encode flat_map]. rewrite E. split; [reflexivity|assumption].
Qed.

Lemma cont_neq h b : is_cont h = false -> is_cont b = true -> (h =? b)%N = false.
Proof.
  intros Hh Hb. destruct (N.eqb_spec h b) as [->|]; [congruence|reflexivity].
Qed.

Lemma selfsync : forall s p x y,
  forallb scalar s = true -> forallb scalar p = true -> p <> [] ->
  encode s = x ++ encode p ++ y ->
  exists a b, s = a ++ p ++ b /\ x = encode a /\ y = encode b.
Proof.
  induction s as [|c r IH]; intros p x y Hs Hp Hne E.
  - exfalso. cbn in E. symmetry in E. apply app_eq_nil in E as [_ E].
    apply app_eq_nil in E as [E _]. apply encode_nil_inv in E. contradiction.
  - destruct x as [|x1 x'].
    + destruct (encode_prefix_app p (c :: r) y Hp Hs E) as (b & Eb & Ey). exists [], b. auto.
    + pose proof Hs as Hs'. cbn [forallb] in Hs'. apply andb_true_iff in Hs' as [Hc Hr].
      destruct (enc1_shape c) as (h & t & Ec & Hh & Ht).
      cbn [encode flat_map] in E. fold (encode r) in E. rewrite Ec in E. cbn [app] in E.
      injection E as E1 E2. subst x1.
      apply app_eq_app in E2 as [l [[Et El]|[Ex El]]].
      * (* the occurrence would start inside the character: impossible unless l = [] *)
        destruct l as [|l1 l'].
        -- rewrite app_nil_r in Et. subst x'. cbn [app] in El.
           destruct (IH p [] y Hr Hp Hne) as (a & b & Er & Ea & Ey); [now symmetry|].
           symmetry in Ea. apply encode_nil_inv in Ea. subst a.
           exists [c], b. cbn [app] in *. split; [now rewrite Er|]. split; [|assumption].
           cbn [encode flat_map]. now rewrite Ec, app_nil_r.
        -- exfalso. destruct (encode_head_shape p Hne) as (hp & tp & Ep & Hhp).
           rewrite Ep in El. cbn [app] in El. injection El as E3 _. subst l1.
           rewrite Et, forallb_app in Ht. apply andb_true_iff in Ht as [_ Ht].
           cbn [forallb] in Ht. apply andb_true_iff in Ht as [Ht _]. congruence.
      * destruct (IH p l y Hr Hp Hne El) as (a & b & Er & Ea & Ey).
        exists (c :: a), b. split; [cbn [app]; now rewrite Er|]. split; [|assumption].
        cbn [encode flat_map]. fold (encode a). rewrite Ec, Ex, Ea. reflexivity.
Qed.

Lemma gsplit_f_cons f sep lim cur x r :
  gsplit_f (S f) sep lim cur (x :: r) =
  if prefixb sep (x :: r) && lim_ok lim
  then rev cur :: gsplit_f f sep (lim_pred lim) [] (skipn (length sep) (x :: r))
  else gsplit_f f sep lim (x :: cur) r.
Proof. reflexivity. Qed.

(** continuation bytes are stepped over: no separator can start there *)
Lemma cont_run hs ps : is_cont hs = false -> forall t f lim cur rest,
  forallb is_cont t = true ->
  gsplit_f (length t + f) (hs :: ps) lim cur (t ++ rest) =
  gsplit_f f (hs :: ps) lim (rev t ++ cur) rest.
Proof.
  intros Hh. induction t as [|b t IH]; intros f lim cur rest Ht; [reflexivity|].
  cbn [forallb] in Ht. apply andb_true_iff in Ht as [Hb Ht].
  cbn [length Nat.add app]. rewrite gsplit_f_cons. cbn [prefixb].
  rewrite (cont_neq hs b Hh Hb). cbn [andb]. rewrite IH by assumption.
  cbn [rev]. now rewrite <- app_assoc.
Qed.

(** [fb], [fc]: the fuels of the byte loop and the code-point loop; [rev curb = encode (rev cur)]
    relates the open pieces; without a split the byte loop takes [length (enc1 c)] steps ([cont_run]) *)
Lemma gsplit_f_refines sep : sep <> [] -> forallb scalar sep = true ->
  forall fc s lim cur fb curb,
    forallb scalar s = true -> length s < fc -> length (encode s) < fb ->
    rev curb = encode (rev cur) ->
    gsplit_f fb (encode sep) lim curb (encode s) = map encode (gsplit_f fc sep lim cur s).
Proof.
  intros Hne Hsep.
  destruct (encode_head_shape sep Hne) as (hs & ps & Esep & Hhs).
  assert (Lsep : 1 <= length sep) by (destruct sep; [contradiction|cbn; lia]).
  assert (Lsepb : 1 <= length (encode sep)) by (rewrite Esep; cbn; lia).
  induction fc as [|fc IH]; intros s lim cur fb curb Hs Lc Lb Hcur; [lia|].
  destruct fb as [|fb]; [lia|].
  destruct s as [|c r].
  - cbn [encode flat_map gsplit_f map]. now rewrite Hcur.
  - pose proof Hs as Hs'. cbn [forallb] in Hs'. apply andb_true_iff in Hs' as [Hc Hr].
    destruct (enc1_shape c) as (h & t & Ec & Hh & Ht).
    assert (EE : encode (c :: r) = h :: t ++ encode r).
    { cbn [encode flat_map]. now rewrite Ec. }
    (* the branch where no split happens here *)
    assert (ELSE : gsplit_f fb (encode sep) lim (h :: curb) (t ++ encode r)
                   = map encode (gsplit_f fc sep lim (c :: cur) r)).
    { rewrite EE in Lb. cbn [length] in Lb. rewrite app_length in Lb.
      replace fb with (length t + (fb - length t)) by lia.
      rewrite Esep, cont_run by assumption. rewrite <- Esep.
      apply IH; auto; [cbn [length] in Lc; lia | lia |].
      rewrite rev_app_distr, rev_involutive. cbn [rev]. rewrite Hcur, <- app_assoc. cbn [app].
      rewrite encode_app. cbn [encode flat_map]. now rewrite Ec, app_nil_r. }
    rewrite gsplit_f_cons. rewrite EE, gsplit_f_cons. rewrite <- EE.
    rewrite (prefixb_encode sep (c :: r)) by assumption.
    destruct (prefixb sep (c :: r)) eqn:P; cbn [andb]; [|exact ELSE].
    destruct (lim_ok lim); [|exact ELSE].
    apply prefixb_iff in P as [x P]. cbn [map]. rewrite Hcur. f_equal.
    assert (Hx : forallb scalar x = true).
    { rewrite P, forallb_app in Hs. now apply andb_true_iff in Hs as [_ Hs]. }
    rewrite P, encode_app, !skipn_length_app.
    apply IH; auto.
    + rewrite P, app_length in Lc. lia.
    + rewrite P, encode_app, app_length in Lb. lia.
Qed.

Lemma bsplit_refines s sep lim : sep <> [] ->
  forallb scalar s = true -> forallb scalar sep = true ->
  bsplit s sep lim = map encode (gsplit sep lim s).
Proof.
  intros Hne Hs Hsep. unfold bsplit, gsplit. apply gsplit_f_refines; auto.
Qed.

Lemma suffix_iff (p : list N) : forall s, prefixb (rev p) (rev s) = true <-> exists x, s = x ++ p.
Proof.
  intros s. rewrite prefixb_iff. split.
  - intros [x E]. exists (rev x). apply (f_equal (@rev N)) in E.
    rewrite rev_involutive, rev_app_distr, rev_involutive in E. assumption.
  - intros [x ->]. exists (rev x). apply rev_app_distr.
Qed.

Lemma ends_spec_iff a b : ends_spec a b = true <-> exists x, a = x ++ b.
Proof.
  unfold ends_spec. destruct (Nat.ltb_spec (length a) (length b)) as [Hlt|Hge].
  - split; [discriminate|]. intros [x ->]. rewrite app_length in Hlt. lia.
  - rewrite <- substr_refines. unfold substr_impl. rewrite list_eqb_eq.
    rewrite firstn_all2 by (rewrite skipn_length; lia). split.
    + intros E. exists (firstn (length a - length b) a).
      transitivity (firstn (length a - length b) a ++ skipn (length a - length b) a);
        [symmetry; apply firstn_skipn | f_equal; exact E].
    + intros [x ->]. rewrite app_length, Nat.add_sub. apply skipn_length_app.
Qed.
