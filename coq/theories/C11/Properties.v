(** C11 — the property theorems; helper lemmas are in Proofs*.v and Common/Utf8.v.
    Hash functions: NO theorem (no Coq model of MD5/SHA-1/SHA-2/SHA-3). *)
From Coq Require Import List NArith ZArith Bool Lia.
From JrV Require Import Common.Utf8 C11.Model C11.ProofsFind C11.ProofsStr C11.ProofsNum C11.ProofsB64 C11.ProofsSplit.
Import ListNotations.

Theorem C11_utf8_roundtrip :
  forall s, forallb scalar s = true -> decode (encode s) = Some s.
Proof. exact decode_encode. Qed.
Print Assumptions C11_utf8_roundtrip.

(** what the strict decoder accepts is the encoding of what it returns (overlong forms, surrogates,
    > U+10FFFF rejected) *)
Theorem C11_utf8_decode_sound :
  forall bs s, decode bs = Some s -> encode s = bs /\ forallb scalar s = true.
Proof. exact decode_sound. Qed.
Print Assumptions C11_utf8_decode_sound.

(** the lossy decoder (default of std.decodeUTF8) agrees with the strict one on valid input *)
Theorem C11_utf8_lossy_agrees :
  forall bs s, decode bs = Some s -> decode_lossy bs = s.
Proof. exact lossy_of_valid. Qed.
Print Assumptions C11_utf8_lossy_agrees.

Theorem C11_utf8_prefix :
  forall p s x, forallb scalar p = true -> forallb scalar s = true ->
    encode p ++ x = encode s -> firstn (length p) s = p /\ encode (skipn (length p) s) = x.
Proof. exact encode_prefix. Qed.
Print Assumptions C11_utf8_prefix.

Theorem C11_utf8_injective :
  forall a b, forallb scalar a = true -> forallb scalar b = true -> encode a = encode b -> a = b.
Proof. exact encode_inj. Qed.
Print Assumptions C11_utf8_injective.

(** lead bytes are not continuation bytes, all others are *)
Theorem C11_utf8_byte_classes :
  forall c, (c <= 1114111)%N ->
    exists h t, enc1 c = h :: t /\ is_cont h = false /\ forallb is_cont t = true.
Proof. intros c _. apply enc1_shape. Qed.
Print Assumptions C11_utf8_byte_classes.

(** findSubstr's walk over char_indices() with a byte bound and byte-slice comparison = the
    code-point definition *)
Theorem C11_findSubstr_refines :
  forall pat s, forallb scalar pat = true -> forallb scalar s = true ->
    find_impl pat s = find_spec pat s.
Proof.
  intros pat s Hp Hs. destruct pat as [|p0 pat'].
  - reflexivity.
  - rewrite find_impl_rec, find_spec_rec by (auto; discriminate). reflexivity.
Qed.
Print Assumptions C11_findSubstr_refines.

Theorem C11_findSubstr_sound :
  forall pat s i, In i (find_spec pat s) ->
    firstn (length pat) (skipn i s) = pat /\ i + length pat <= length s.
Proof.
  intros pat s i.
  unfold find_spec. destruct (is_nil pat || is_nil s || (length s <? length pat)) eqn:G; [intros []|].
  intros H. apply filter_In in H as [Hi Ht]. apply list_eqb_eq in Ht. apply in_seq in Hi.
  apply orb_false_iff in G as [_ G]. apply Nat.ltb_ge in G. split; [assumption|lia].
Qed.
Print Assumptions C11_findSubstr_sound.

Theorem C11_findSubstr_complete :
  forall pat s i, pat <> [] ->
    firstn (length pat) (skipn i s) = pat -> i + length pat <= length s -> In i (find_spec pat s).
Proof.
  intros pat s i Hne Ht Hi. unfold find_spec.
  destruct pat as [|p0 pat']; [contradiction|]. cbn [is_nil orb].
  destruct s as [|c0 s']; [cbn in Hi; lia|]. cbn [is_nil].
  destruct (Nat.ltb_spec (length (c0 :: s')) (length (p0 :: pat'))) as [Hlt|Hge]; [lia|].
  apply filter_In. split; [apply in_seq; lia|]. now apply list_eqb_eq.
Qed.
Print Assumptions C11_findSubstr_complete.

(** str::starts_with on the bytes = the substr-based definition on code points *)
Theorem C11_startsWith_refines :
  forall a b, forallb scalar a = true -> forallb scalar b = true ->
    starts_impl a b = starts_spec a b.
Proof. intros. unfold starts_impl. rewrite starts_spec_prefixb. now apply prefixb_encode. Qed.
Print Assumptions C11_startsWith_refines.

(** chars().skip(from).take(len) = makeArray(max(0, min(len, |s| - from)), i => s[i + from]) *)
Theorem C11_substr_spec :
  forall s from len, substr_impl s from len = substr_spec s from len.
Proof. exact substr_refines. Qed.
Print Assumptions C11_substr_spec.

(** the split definition, every limit: the pieces joined give the string back, at most n+1 pieces *)
Theorem C11_split_spec :
  forall s sep lim, sep <> [] ->
    exists ps, split_spec s sep lim = Some ps /\ join sep ps = s /\ ps <> [] /\
               (forall n, lim = Some n -> length ps <= S n).
Proof.
  intros s sep lim H. unfold split_spec. destruct sep as [|x0 sep']; [contradiction|]. cbn [is_nil].
  eexists. split; [reflexivity|]. split; [apply gsplit_join|]. split; [apply gsplit_f_nonempty|].
  intros m ->. apply gsplit_f_count.
Qed.
Print Assumptions C11_split_spec.

Theorem C11_strReplace_identity :
  forall s from, from <> [] -> replace_spec s from from = Some s.
Proof.
  intros s from H. unfold replace_spec. destruct from as [|x0 from']; [contradiction|]. cbn [is_nil].
  now rewrite gsplit_join.
Qed.
Print Assumptions C11_strReplace_identity.

(** a digit string below 2^53 is parsed exactly by the classifier + one rounding per step *)
Theorem C11_parse_nat_exact :
  forall base s v, (base = 8 \/ base = 10 \/ base = 16)%N ->
    nat_spec base s = Some v -> (v < 2 ^ 53)%N ->
    nat_impl base s = PFin v.
Proof. intros base s v Hb. exact (nat_impl_exact base s v (parse_bases base Hb)). Qed.
Print Assumptions C11_parse_nat_exact.

(** ... and a non-digit or the empty string is rejected *)
Theorem C11_parse_nat_rejects :
  forall base s, (base = 8 \/ base = 10 \/ base = 16)%N ->
    nat_spec base s = None -> nat_impl base s = PBad.
Proof. intros base s Hb. exact (nat_impl_bad base s (parse_bases base Hb)). Qed.
Print Assumptions C11_parse_nat_rejects.

Theorem C11_digit_alphabet :
  forall base c, (base = 8 \/ base = 10 \/ base = 16)%N ->
    (exists d, digit_spec base c = Some d) <->
    ((48 <= c /\ c < 48 + N.min base 10) \/ (base = 16 /\ ((97 <= c <= 102) \/ (65 <= c <= 70))))%N.
Proof.
  intros base c _. destruct (digit_spec_class base c) as [D | -> L | -> U | D H].
  - destruct (N.ltb_spec (c - 48) base).
    + split; [intros _; left; lia | eauto].
    + split; [now intros [d [=]] | intros [A | [-> _]]; lia].
  - split; [intros _; right; auto | eauto].
  - split; [intros _; right; auto | eauto].
  - split; [now intros [d [=]] | intros [A | [E A]]; [lia | destruct (H E); lia]].
Qed.
Print Assumptions C11_digit_alphabet.

Theorem C11_codepoint_char_inverse :
  forall c, scalar c = true ->
    char_spec (Z.of_N c) = Some [c] /\ codepoint_spec [c] = Some c.
Proof.
  intros c H. unfold char_spec. destruct (Z.ltb_spec (Z.of_N c) 0); [lia|].
  now rewrite N2Z.id, H.
Qed.
Print Assumptions C11_codepoint_char_inverse.

Theorem C11_char_defined_iff_scalar :
  forall n s, char_spec n = Some s ->
    (0 <= n)%Z /\ scalar (Z.to_N n) = true /\ codepoint_spec s = Some (Z.to_N n).
Proof.
  intros n s.
  unfold char_spec. destruct (Z.ltb_spec n 0); [discriminate|].
  destruct (scalar (Z.to_N n)) eqn:E; [|discriminate]. intros HS; inversion HS; subst. auto.
Qed.
Print Assumptions C11_char_defined_iff_scalar.

Theorem C11_encode_decode_inverse :
  forall s, forallb scalar s = true ->
    spec_call (CDecode (encode s) true) = RStr s /\ spec_call (CDecode (encode s) false) = RStr s.
Proof. intros s H. cbn [spec_call]. now rewrite lossy_encode, decode_encode. Qed.
Print Assumptions C11_encode_decode_inverse.

Theorem C11_decode_encode_inverse :
  forall bs s, spec_call (CDecode bs false) = RStr s ->
    spec_call (CEncode s) = RBytes bs /\ spec_call (CDecode bs true) = RStr s.
Proof.
  intros bs s.
  cbn [spec_call]. unfold ostr. destruct (decode bs) as [t|] eqn:E; [|discriminate].
  intros HS; inversion HS; subst. pose proof (lossy_of_valid _ _ E) as L.
  apply decode_sound in E as [<- _]. now rewrite L.
Qed.
Print Assumptions C11_decode_encode_inverse.

(** RFC 4648: the canonical decoder inverts the encoder *)
Theorem C11_base64_roundtrip :
  forall bs, bytes_ok bs = true -> b64_decode (b64_encode bs) = Some bs.
Proof.
  induction bs as [|a|a b|a b c r IH] using list_ind3; rewrite ?bytes_ok_cons.
  - reflexivity.
  - (* a final group of one or two bytes ends in a sextet [h * m]: its low bits are the zero padding *)
    intros [Ha%byte_parts _]. cbn [b64_encode b64_decode]. unfold last_quad.
    rewrite !N.eqb_refl, !b64_val_char by lia. rewrite N.mod_mul, N.div_mul by lia.
    now rewrite div_mod_eq.
  - intros (Ha%byte_parts & Hb%byte_parts & _). cbn [b64_encode b64_decode]. unfold last_quad.
    rewrite N.eqb_refl, (proj2 (N.eqb_neq _ pad)) by (apply b64_char_not_pad; lia).
    rewrite !b64_val_char by lia. rewrite N.mod_mul, N.div_mul, div_mul_add, mod_mul_add by lia.
    now rewrite !div_mod_eq.
  - intros (Ha & Hb & Hc & Hr). cbn [b64_encode]. destruct (b64_encode r) as [|x e] eqn:E.
    + apply b64_encode_nil_inv in E. subst r. cbn [b64_decode]. unfold last_quad.
      rewrite (proj2 (N.eqb_neq _ pad)) by now apply b64_char_not_pad, N.mod_lt.
      now apply quad_enc.
    + rewrite b64_decode_cons4 by discriminate. now rewrite quad_enc, IH.
Qed.
Print Assumptions C11_base64_roundtrip.

Theorem C11_base64_length :
  forall bs, length (b64_encode bs) = 4 * ((length bs + 2) / 3).
Proof.
  induction bs as [|a|a b|a b c r IH] using list_ind3; try reflexivity.
  cbn [b64_encode length]. rewrite IH.
  replace (S (S (S (length r))) + 2)%nat with (length r + 2 + 1 * 3)%nat by lia.
  rewrite Nat.div_add by lia. lia.
Qed.
Print Assumptions C11_base64_length.

Theorem C11_base64_alphabet :
  forall bs, bytes_ok bs = true -> forallb is_b64_char (b64_encode bs) = true.
Proof.
  induction bs as [|a|a b|a b c r IH] using list_ind3; rewrite ?bytes_ok_cons.
  - reflexivity.
  - intros [Ha%byte_parts _]. cbn [b64_encode forallb]. now rewrite !is_b64_char_char by lia.
  - intros (Ha%byte_parts & Hb%byte_parts & _). cbn [b64_encode forallb].
    now rewrite !is_b64_char_char by lia.
  - intros (Ha%byte_parts & Hb%byte_parts & Hc%byte_parts & Hr). cbn [b64_encode forallb].
    rewrite IH by assumption. now rewrite !is_b64_char_char by lia.
Qed.
Print Assumptions C11_base64_alphabet.

Theorem C11_base64_string_roundtrip :
  forall s, forallb scalar s = true ->
    spec_call (CB64Dec (b64_encode (encode s))) = RStr s.
Proof.
  intros s H. cbn [spec_call]. rewrite C11_base64_roundtrip by now apply encode_bytes_ok.
  now rewrite decode_encode.
Qed.
Print Assumptions C11_base64_string_roundtrip.

(** an encoding occurs inside another only at a character boundary, as an occurrence of the code points *)
Theorem C11_utf8_selfsync :
  forall s p x y,
    forallb scalar s = true -> forallb scalar p = true -> p <> [] ->
    encode s = x ++ encode p ++ y ->
    exists a b, s = a ++ p ++ b /\ x = encode a /\ y = encode b.
Proof. exact selfsync. Qed.
Print Assumptions C11_utf8_selfsync.

(** the leftmost non-overlapping search on the BYTES (str::split / splitn(n+1)) yields the encodings
    of the pieces of the code-point definition *)
Theorem C11_split_refines :
  forall s sep lim, sep <> [] ->
    forallb scalar s = true -> forallb scalar sep = true ->
    bsplit s sep lim = map encode (gsplit sep lim s).
Proof. exact bsplit_refines. Qed.
Print Assumptions C11_split_refines.

(** str::ends_with on the bytes = the substr-based definition on code points *)
Theorem C11_endsWith_refines :
  forall a b, forallb scalar a = true -> forallb scalar b = true ->
    ends_impl a b = ends_spec a b.
Proof.
  intros a b Ha Hb. apply eq_iff_eq_true. unfold ends_impl. rewrite suffix_iff, ends_spec_iff.
  destruct b as [|b0 b'].
  - split; intros _; [exists a | exists (encode a)]; now rewrite app_nil_r.
  - split.
    + intros [x E]. rewrite <- (app_nil_r (encode (b0 :: b'))) in E.
      apply selfsync in E as (p & q & Ea & _ & Eq); auto; [|discriminate].
      symmetry in Eq. apply encode_nil_inv in Eq. subst q. exists p. now rewrite app_nil_r in Ea.
    + intros [x ->]. exists (encode x). apply encode_app.
Qed.
Print Assumptions C11_endsWith_refines.

(** trim_end_matches (scan from the end) = rstripChars *)
Theorem C11_rstrip_refines :
  forall chars s, rstrip_impl s chars = rstrip_spec s chars.
Proof. exact rstrip_refines. Qed.
Print Assumptions C11_rstrip_refines.

(** trim_matches (start, then end) = lstripChars(rstripChars(s)) *)
Theorem C11_strip_spec :
  forall chars s, strip_impl s chars = strip_spec s chars.
Proof. exact strip_refines. Qed.
Print Assumptions C11_strip_spec.

