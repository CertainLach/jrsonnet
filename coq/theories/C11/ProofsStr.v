(** C11 — substr, laws of the split loop, the stripChars family. *)
From Coq Require Import List NArith Bool Lia Arith.
From JrV Require Import C11.Model C11.ProofsFind.
Import ListNotations.

Lemma nth_skipn_add (s : str) : forall from i, nth (i + from) s 0%N = nth i (skipn from s) 0%N.
Proof.
  intros from. revert s. induction from as [|f IH]; intros s j.
  - rewrite Nat.add_0_r. reflexivity.
  - destruct s as [|x s]; cbn [skipn].
    + rewrite Nat.add_succ_r. cbn [nth]. destruct j; reflexivity.
    + rewrite Nat.add_succ_r. cbn [nth]. apply IH.
Qed.

Lemma substr_refines s from len : substr_impl s from len = substr_spec s from len.
Proof.
  unfold substr_impl. rewrite <- substr_firstn. unfold substr_spec.
  rewrite skipn_length, Nat.sub_0_r. apply map_ext. intros i.
  now rewrite Nat.add_0_r, nth_skipn_add.
Qed.

Lemma substr_length s from len :
  length (substr_spec s from len) = Nat.min len (length s - from).
Proof. unfold substr_spec. now rewrite map_length, seq_length. Qed.

Lemma gsplit_f_nonempty fuel : forall sep lim cur s, gsplit_f fuel sep lim cur s <> [].
Proof.
  induction fuel as [|f IH]; intros sep lim cur s; cbn [gsplit_f]; [discriminate|].
  destruct s as [|c r]; [discriminate|].
  destruct (prefixb sep (c :: r) && lim_ok lim); [discriminate|apply IH].
Qed.

Lemma join_cons sep p rest : rest <> [] -> join sep (p :: rest) = p ++ sep ++ join sep rest.
Proof. destruct rest; [contradiction|reflexivity]. Qed.

Lemma gsplit_f_join fuel : forall sep lim cur s,
  join sep (gsplit_f fuel sep lim cur s) = rev cur ++ s.
Proof.
  induction fuel as [|f IH]; intros sep lim cur s; cbn [gsplit_f]; [reflexivity|].
  destruct s as [|c r]; [cbn [join]; now rewrite app_nil_r|].
  destruct (prefixb sep (c :: r)) eqn:P; cbn [andb].
  - destruct (lim_ok lim).
    + rewrite join_cons by apply gsplit_f_nonempty. rewrite IH. cbn [rev app].
      apply prefixb_iff in P as [x P]. rewrite P, skipn_length_app. reflexivity.
    + rewrite IH. cbn [rev]. now rewrite <- app_assoc.
  - rewrite IH. cbn [rev]. now rewrite <- app_assoc.
Qed.

Lemma gsplit_join sep lim s : join sep (gsplit sep lim s) = s.
Proof. unfold gsplit. now rewrite gsplit_f_join. Qed.

Lemma gsplit_f_count fuel : forall sep n cur s,
  length (gsplit_f fuel sep (Some n) cur s) <= S n.
Proof.
  induction fuel as [|f IH]; intros sep n cur s; cbn [gsplit_f]; [cbn; lia|].
  destruct s as [|c r]; [cbn; lia|].
  destruct (prefixb sep (c :: r)); cbn [andb]; [|apply IH].
  unfold lim_ok. destruct (Nat.ltb_spec 0 n); [|apply IH].
  cbn [length lim_pred option_map]. specialize (IH sep (pred n) [] (skipn (length sep) (c :: r))). lia.
Qed.

(** that no piece of an unlimited split contains the separator is not proved *)
Fixpoint occurs (sep s : list N) : bool :=
  match s with
  | [] => false
  | _ :: r => prefixb sep s || occurs sep r
  end.

Lemma rstrip_spec_snoc chars c : forall s,
  rstrip_spec (s ++ [c]) chars = if memb c chars then rstrip_spec s chars else s ++ [c].
Proof.
  induction s as [|x s IH].
  - cbn [app rstrip_spec]. destruct (memb c chars); reflexivity.
  - cbn [app rstrip_spec]. rewrite IH. destruct (memb c chars); [reflexivity|].
    destruct s; reflexivity.
Qed.

Lemma rstrip_refines chars : forall s, rstrip_impl s chars = rstrip_spec s chars.
Proof.
  unfold rstrip_impl. induction s as [|c s IH] using rev_ind; [reflexivity|].
  rewrite rev_app_distr, rstrip_spec_snoc. cbn [rev app lstrip_spec].
  destruct (memb c chars); [exact IH|]. cbn [rev]. now rewrite rev_involutive.
Qed.

Lemma rstrip_nil_all chars : forall s, rstrip_spec s chars = [] -> lstrip_spec s chars = [].
Proof.
  induction s as [|c s IH]; [reflexivity|]. cbn [rstrip_spec lstrip_spec].
  destruct (rstrip_spec s chars) eqn:E; [|discriminate].
  destruct (memb c chars); [intros _; now apply IH|discriminate].
Qed.

Lemma lstrip_nil_all chars : forall s, lstrip_spec s chars = [] -> rstrip_spec s chars = [].
Proof.
  induction s as [|c s IH]; [reflexivity|]. cbn [rstrip_spec lstrip_spec].
  destruct (memb c chars); [|discriminate]. intros H. now rewrite IH.
Qed.

Lemma strip_commute chars : forall s,
  lstrip_spec (rstrip_spec s chars) chars = rstrip_spec (lstrip_spec s chars) chars.
Proof.
  induction s as [|c s IH]; [reflexivity|]. cbn [rstrip_spec lstrip_spec].
  destruct (memb c chars) eqn:M.
  - destruct (rstrip_spec s chars) as [|t0 t] eqn:E.
    + cbn [lstrip_spec]. symmetry. apply lstrip_nil_all. now apply rstrip_nil_all.
    + cbn [lstrip_spec]. rewrite M. exact IH.
  - cbn [rstrip_spec]. destruct (rstrip_spec s chars) as [|t0 t]; cbn [lstrip_spec]; now rewrite M.
Qed.

Lemma strip_refines chars s : strip_impl s chars = strip_spec s chars.
Proof. unfold strip_impl, strip_spec. now rewrite rstrip_refines, strip_commute. Qed.
