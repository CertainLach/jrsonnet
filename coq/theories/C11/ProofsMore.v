(** C11 — ModelMore.v: ASCII case maps commute with [encode] ([map_ascii_encode]); the escapers act byte by
    byte ([bytewise]); stripChars, equalsIgnoreCase, parseInt/parseOctal/parseHex on the digit lemmas of ProofsNum. *)
From Coq Require Import List NArith ZArith Bool Lia.
From JrV Require Import Common.Utf8 Gen.GenStr C11.Model C11.ModelMore.
From JrV Require Import C11.ProofsFind C11.ProofsStr C11.ProofsSplit C11.ProofsNum.
From JrV Require C05.Model C05.Proofs.
Import ListNotations.
Local Open Scope N_scope.

Lemma memb_In c l : memb c l = true <-> In c l.
Proof.
  unfold memb. rewrite existsb_exists. split; [intros (x & Hx & <-%N.eqb_eq); exact Hx|].
  intros H. exists c. split; [exact H | apply N.eqb_refl].
Qed.

Lemma existsb_false {A} (f : A -> bool) l : existsb f l = false -> forall x, In x l -> f x = false.
Proof.
  intros H x Hx. destruct (f x) eqn:E; [|reflexivity].
  rewrite <- H. symmetry. apply existsb_exists. now exists x.
Qed.

(** * a per-byte map that fixes bytes >= 128 is a per-code-point map *)
Lemma enc1_high c : 128 <= c -> Forall (fun b => 128 <= b) (enc1 c).
Proof.
  intros H. unfold enc1. rewrite (proj2 (N.ltb_ge c 128) H).
  assert (B : forall k x, 128 <= k -> 128 <= k + x).
  { intros k x Hk. apply (N.le_trans _ k); [exact Hk | apply N.le_add_r]. }
  destruct (c <? 2048); [|destruct (c <? 65536)]; repeat constructor; now apply B.
Qed.

Lemma flat_map_fix (f : N -> list N) l : Forall (fun b => f b = [b]) l -> flat_map f l = l.
Proof. induction 1 as [|b l Hb _ IH]; [reflexivity|]. cbn [flat_map]. now rewrite Hb, IH. Qed.

(** agreement asked only of the characters of [s]: escapeStringJson disagrees on U+007F..U+009F *)
Lemma bytewise_on (f g : N -> list N) :
  (forall b, 128 <= b -> f b = [b]) ->
  forall s, (forall c, In c s -> (c < 128 -> f c = encode (g c)) /\ (128 <= c -> g c = [c])) ->
  flat_map f (encode s) = encode (flat_map g s).
Proof.
  intros Hf s. induction s as [|c s IH]; intros H; [reflexivity|].
  cbn [encode flat_map]. fold (encode s). rewrite flat_map_app.
  change (flat_map enc1 (g c ++ flat_map g s)) with (encode (g c ++ flat_map g s)).
  rewrite encode_app, IH by (intros x Hx; apply H; now right).
  f_equal. destruct (H c (or_introl eq_refl)) as [Hlo Hhi].
  destruct (N.lt_ge_cases c 128) as [L|G].
  - rewrite enc1_1 by assumption. cbn [flat_map]. rewrite app_nil_r. now apply Hlo.
  - rewrite (Hhi G). cbn [encode flat_map]. rewrite app_nil_r.
    apply flat_map_fix. eapply Forall_impl; [|apply enc1_high; assumption]. intros b Hb. now apply Hf.
Qed.

Lemma bytewise (f g : N -> list N) :
  (forall c, c < 128 -> f c = encode (g c)) -> (forall b, 128 <= b -> f b = [b]) -> (forall c, 128 <= c -> g c = [c]) ->
  forall s, flat_map f (encode s) = encode (flat_map g s).
Proof. intros H1 H2 H3 s. apply bytewise_on; [assumption|]. intros c _. split; auto. Qed.

Lemma flat_map_single {A B} (f : A -> B) l : flat_map (fun x => [f x]) l = map f l.
Proof. induction l as [|x l IH]; [reflexivity|]. cbn. now rewrite IH. Qed.

Lemma map_ascii_encode f : (forall c, c < 128 -> f c < 128) -> (forall c, 128 <= c -> f c = c) ->
  forall s, map f (encode s) = encode (map f s).
Proof.
  intros Hlo Hhi s. rewrite <- !flat_map_single. apply bytewise.
  - intros c H. cbn [encode flat_map]. now rewrite app_nil_r, enc1_1 by auto.
  - intros b H. now rewrite Hhi.
  - intros c H. now rewrite Hhi.
Qed.

Lemma up1_letter c : 97 <= c <= 122 -> up1 c = c - 32.
Proof. intros H. unfold up1. now destruct (range_reflect 97 122 c). Qed.
Lemma up1_other c : ~ 97 <= c <= 122 -> up1 c = c.
Proof. intros H. unfold up1. now destruct (range_reflect 97 122 c). Qed.
Lemma low1_letter c : 65 <= c <= 90 -> low1 c = c + 32.
Proof. intros H. unfold low1. now destruct (range_reflect 65 90 c). Qed.
Lemma low1_other c : ~ 65 <= c <= 90 -> low1 c = c.
Proof. intros H. unfold low1. now destruct (range_reflect 65 90 c). Qed.

Lemma up1_cases c : up1 c = c \/ (97 <= c /\ c <= 122 /\ up1 c = c - 32).
Proof.
  destruct (range_reflect 97 122 c) as [R|R]; [right | left; now apply up1_other].
  split; [apply R | split; [apply R | now apply up1_letter]].
Qed.
Lemma low1_cases c : low1 c = c \/ (65 <= c /\ c <= 90 /\ low1 c = c + 32).
Proof.
  destruct (range_reflect 65 90 c) as [R|R]; [right | left; now apply low1_other].
  split; [apply R | split; [apply R | now apply low1_letter]].
Qed.

(** [b ^ 0x20] = [b - 32] on a..z, [b | 0x20] = [b + 32] on A..Z: 26 bit patterns each *)
Lemma up_byte_eq b : up_byte b = up1 b.
Proof.
  unfold up_byte, up1. destruct (range_reflect 97 122 b) as [[L U]|_]; [|reflexivity].
  apply N.eqb_eq, (range_forallb (fun b => N.lxor b 32 =? b - 32) 97 26);
    [now vm_compute | exact L | exact (proj2 (N.lt_succ_r b 122) U)].
Qed.

Lemma low_byte_eq b : low_byte b = low1 b.
Proof.
  unfold low_byte, low1. destruct (range_reflect 65 90 b) as [[L U]|_]; [|reflexivity].
  apply N.eqb_eq, (range_forallb (fun b => N.lor b 32 =? b + 32) 65 26);
    [now vm_compute | exact L | exact (proj2 (N.lt_succ_r b 90) U)].
Qed.

Lemma map_up_encode s : map up_byte (encode s) = encode (upper_spec s).
Proof.
  rewrite (map_ext _ _ up_byte_eq). apply map_ascii_encode.
  - intros c H. destruct (up1_cases c) as [-> | (_ & _ & ->)]; lia.
  - intros c H. apply up1_other. lia.
Qed.

Lemma map_low_encode s : map low_byte (encode s) = encode (lower_spec s).
Proof.
  rewrite (map_ext _ _ low_byte_eq). apply map_ascii_encode.
  - intros c H. destruct (low1_cases c) as [-> | (_ & ? & ->)]; lia.
  - intros c H. apply low1_other. lia.
Qed.

Lemma up1_idem c : up1 (up1 c) = up1 c.
Proof.
  destruct (range_reflect 97 122 c) as [R|R]; [|now rewrite !(up1_other c R)].
  rewrite (up1_letter c R). apply up1_other. lia.
Qed.
Lemma low1_idem c : low1 (low1 c) = low1 c.
Proof.
  destruct (range_reflect 65 90 c) as [R|R]; [|now rewrite !(low1_other c R)].
  rewrite (low1_letter c R). apply low1_other. lia.
Qed.
Lemma low1_up1 c : low1 (up1 c) = low1 c.
Proof.
  destruct (range_reflect 97 122 c) as [R|R]; [|now rewrite (up1_other c R)].
  rewrite (up1_letter c R), low1_letter, (low1_other c) by lia. lia.
Qed.
Lemma up1_low1 c : up1 (low1 c) = up1 c.
Proof.
  destruct (range_reflect 65 90 c) as [R|R]; [|now rewrite (low1_other c R)].
  rewrite (low1_letter c R), up1_letter, (up1_other c) by lia. lia.
Qed.
Lemma up1_scalar c : scalar c = true -> scalar (up1 c) = true.
Proof.
  intros H. destruct (up1_cases c) as [-> | (_ & ? & ->)]; [exact H|]. apply scalar_spec. left. lia.
Qed.
Lemma low1_scalar c : scalar c = true -> scalar (low1 c) = true.
Proof.
  intros H. destruct (low1_cases c) as [-> | (_ & ? & ->)]; [exact H|]. apply scalar_spec. left. lia.
Qed.

Lemma forallb_map_scalar f s : (forall c, scalar c = true -> scalar (f c) = true) ->
  forallb scalar s = true -> forallb scalar (map f s) = true.
Proof.
  intros Hf. induction s as [|c s IH]; [reflexivity|]. cbn [forallb map].
  intros [Hc Hs]%andb_true_iff. now rewrite Hf, IH.
Qed.

Lemma upper_laws s :
  length (upper_spec s) = length s /\ upper_spec (upper_spec s) = upper_spec s /\
  lower_spec (upper_spec s) = lower_spec s /\
  (forallb scalar s = true -> forallb scalar (upper_spec s) = true).
Proof.
  unfold upper_spec, lower_spec. rewrite map_length, !map_map. repeat split.
  - apply map_ext, up1_idem.
  - apply map_ext, low1_up1.
  - apply forallb_map_scalar, up1_scalar.
Qed.

Lemma lower_laws s :
  length (lower_spec s) = length s /\ lower_spec (lower_spec s) = lower_spec s /\
  upper_spec (lower_spec s) = upper_spec s /\
  (forallb scalar s = true -> forallb scalar (lower_spec s) = true).
Proof.
  unfold upper_spec, lower_spec. rewrite map_length, !map_map. repeat split.
  - apply map_ext, low1_idem.
  - apply map_ext, up1_low1.
  - apply forallb_map_scalar, low1_scalar.
Qed.

Lemma eq_ic_impl_map (a : list N) : forall b,
  eq_ic_impl a b = list_eqb (map low_byte a) (map low_byte b).
Proof.
  unfold eq_ic_impl. induction a as [|x a IH]; intros [|y b]; try reflexivity.
  cbn [length Nat.eqb combine forallb map list_eqb fst snd].
  rewrite <- IH. destruct (low_byte x =? low_byte y); cbn [andb]; [reflexivity|].
  now rewrite andb_false_r.
Qed.

Lemma list_eqb_encode a b : forallb scalar a = true -> forallb scalar b = true ->
  list_eqb (encode a) (encode b) = list_eqb a b.
Proof.
  intros Ha Hb. apply eq_true_iff_eq. rewrite !list_eqb_eq. split.
  - now apply encode_inj.
  - now intros ->.
Qed.

Lemma eq_ic_refines a b : forallb scalar a = true -> forallb scalar b = true ->
  eq_ic_impl (encode a) (encode b) = eq_ic_spec a b.
Proof.
  intros Ha Hb. rewrite eq_ic_impl_map, !map_low_encode. unfold eq_ic_spec.
  apply list_eqb_encode; now apply lower_laws.
Qed.

Lemma filter_all_cont t : forallb is_cont t = true -> filter (fun b => negb (is_cont b)) t = [].
Proof.
  rewrite forallb_forall. intros H. apply filter_none. intros b Hb. now rewrite (H b Hb).
Qed.

Lemma chars_ref_eq s : chars_ref s = chars_spec s.
Proof.
  unfold chars_ref, chars_spec. induction s as [|c s IH]; [reflexivity|].
  cbn [length seq map nth]. f_equal. rewrite <- seq_shift, map_map. exact IH.
Qed.

Lemma lstrip_no_chars s : lstrip_spec s [] = s.
Proof. destruct s; reflexivity. Qed.
Lemma rstrip_no_chars s : rstrip_spec s [] = s.
Proof.
  induction s as [|c s IH]; [reflexivity|]. cbn [rstrip_spec]. rewrite IH.
  destruct s; reflexivity.
Qed.

Lemma strip_builtin_guard m s cs spec :
  (forall s cs, strip_by m s cs = spec s cs) -> spec [] cs = [] -> spec s [] = s ->
  strip_builtin m s cs = spec s cs.
Proof.
  intros H Hn Hc. unfold strip_builtin. rewrite is_nil_encode.
  destruct s as [|c s]; [now rewrite Hn|]. destruct cs as [|d cs]; [now rewrite Hc|apply H].
Qed.

Lemma memb_incl a b : forallb (fun c => memb c b) a = true -> forall c, memb c a = true -> memb c b = true.
Proof.
  rewrite forallb_forall. intros H c Hc%memb_In. now apply H.
Qed.

Lemma memb_same a b :
  forallb (fun c => memb c b) a && forallb (fun c => memb c a) b = true -> forall c, memb c a = memb c b.
Proof.
  intros H c. apply andb_true_iff in H as [H1 H2]. apply eq_true_iff_eq. split; now apply memb_incl.
Qed.

Lemma lstrip_ext a b : (forall c, memb c a = memb c b) -> forall s, lstrip_spec s a = lstrip_spec s b.
Proof. intros H s. induction s as [|c s IH]; [reflexivity|]. cbn [lstrip_spec]. now rewrite H, IH. Qed.
Lemma rstrip_ext a b : (forall c, memb c a = memb c b) -> forall s, rstrip_spec s a = rstrip_spec s b.
Proof. intros H s. induction s as [|c s IH]; [reflexivity|]. cbn [rstrip_spec]. now rewrite H, IH. Qed.

Lemma lstrip_shape cs : forall s, exists a, s = a ++ lstrip_spec s cs /\ forallb (fun c => memb c cs) a = true /\
  (match lstrip_spec s cs with c :: _ => memb c cs = false | [] => True end).
Proof.
  induction s as [|c s (a & E & Ha & Hh)]; [exists []; now repeat split|].
  cbn [lstrip_spec]. destruct (memb c cs) eqn:M.
  - exists (c :: a). cbn [app forallb]. rewrite M, Ha. repeat split; [now f_equal|assumption].
  - exists []. now repeat split.
Qed.

Lemma join_encode to ps : join (encode to) (map encode ps) = encode (join to ps).
Proof.
  induction ps as [|p ps IH]; [reflexivity|]. destruct ps as [|q r]; [reflexivity|].
  change (map encode (p :: q :: r)) with (encode p :: map encode (q :: r)).
  rewrite !join_cons by discriminate. now rewrite IH, !encode_app.
Qed.

Lemma str_replace_refines s from to :
  forallb scalar s = true -> forallb scalar from = true ->
  str_replace_impl s from to = option_map encode (replace_spec s from to).
Proof.
  intros Hs Hf. unfold str_replace_impl, replace_spec. rewrite is_nil_encode.
  destruct from as [|c f]; [reflexivity|]. cbn [is_nil option_map]. f_equal.
  unfold replace_bytes. fold (bsplit s (c :: f) None). rewrite bsplit_refines by (assumption || discriminate).
  apply join_encode.
Qed.

Lemma replace1_flat q to : forall fuel cur s, (length s < fuel)%nat ->
  join to (gsplit_f fuel [q] None cur s) = rev cur ++ flat_map (repl1 q to) s.
Proof.
  induction fuel as [|f IH]; intros cur s H; [lia|].
  destruct s as [|c r]; cbn [gsplit_f].
  - cbn. now rewrite app_nil_r.
  - cbn [prefixb lim_ok lim_pred option_map length skipn flat_map] in *. unfold repl1 at 1.
    rewrite N.eqb_sym. destruct (c =? q); cbn [andb].
    + rewrite join_cons by apply gsplit_f_nonempty. rewrite IH by lia. reflexivity.
    + rewrite IH by lia. cbn [rev]. now rewrite <- app_assoc.
Qed.

Lemma replace_char_flat q to s : join to (gsplit [q] None s) = flat_map (repl1 q to) s.
Proof. unfold gsplit. now rewrite replace1_flat by lia. Qed.

Lemma replace_bytes_char q to s : q < 128 -> forallb scalar s = true ->
  replace_bytes (encode s) (enc1 q) (encode to) = encode (flat_map (repl1 q to) s).
Proof.
  intros Hq Hs. unfold replace_bytes. replace (enc1 q) with (encode [q]) by (cbn; now rewrite app_nil_r).
  fold (bsplit s [q] None). rewrite bsplit_refines; try assumption; try discriminate.
  - now rewrite join_encode, replace_char_flat.
  - cbn [forallb]. rewrite andb_true_r. apply scalar_spec. lia.
Qed.

Lemma esc_bash_gen_refines s : forallb scalar s = true -> esc_bash_impl s = encode (esc_bash_gen s).
Proof.
  intros Hs. unfold esc_bash_impl, esc_bash_gen.
  assert (Hq : bash_quote < 128) by now vm_compute.
  rewrite replace_bytes_char by assumption.
  change (bash_quote :: ?x) with ([bash_quote] ++ x). rewrite !encode_app.
  cbn [encode flat_map]. now rewrite !app_nil_r.
Qed.

Lemma esc_bash_gen_spec s : esc_bash_gen s = esc_bash_spec s.
Proof. (* the generated constants are the literals of the definition: convertible *) reflexivity. Qed.

Lemma position_none f : forall bs, position f bs = None -> existsb f bs = false.
Proof.
  induction bs as [|b r IH]; [reflexivity|]. cbn [position existsb]. destruct (f b); [discriminate|].
  destruct (position f r); [discriminate|]. intros _. now apply IH.
Qed.

Lemma position_some f : forall bs p, position f bs = Some p ->
  exists b r, skipn p bs = b :: r /\ f b = true /\ existsb f (firstn p bs) = false /\
              bs = firstn p bs ++ b :: r.
Proof.
  induction bs as [|b r IH]; intros p H; [discriminate|]. cbn [position] in H. destruct (f b) eqn:Fb.
  - injection H as <-. exists b, r. now repeat split.
  - destruct (position f r) as [q|] eqn:P; [|discriminate]. injection H as <-.
    destruct (IH q eq_refl) as (b' & r' & E1 & E2 & E3 & E4). exists b', r'.
    cbn [skipn firstn existsb app]. rewrite Fb. repeat split; try assumption. now f_equal.
Qed.

Lemma xml_byte_plain l : existsb xml_special l = false -> flat_map xml_byte l = l.
Proof.
  intros H. apply flat_map_fix, Forall_forall. intros b Hb. unfold xml_byte.
  now rewrite (existsb_false _ _ H b Hb).
Qed.

Lemma xml_arm_defined b : xml_special b = true -> exists e, xml_arm b = Some e.
Proof.
  intros Hx%memb_In.
  assert (T : forallb (fun b => match xml_arm b with Some _ => true | None => false end) xml_class = true) by now vm_compute.
  rewrite forallb_forall in T. specialize (T b Hx). destruct (xml_arm b); [eauto|discriminate].
Qed.

(** [out] ++ the rest = [flat_map xml_byte] of the input; the last conjunct serves the return
    for [found = false], which hands back the input *)
Lemma xml_loop_spec : forall fuel rem out found, (length rem < fuel)%nat ->
  exists r o fd, xml_loop fuel rem out found = Some (r, o, fd) /\
    o ++ r = out ++ flat_map xml_byte rem /\ fd = found || existsb xml_special rem /\
    (existsb xml_special rem = false -> o = out /\ r = rem).
Proof.
  induction fuel as [|f IH]; intros rem out found H; [lia|]. cbn [xml_loop].
  destruct (position xml_special rem) as [p|] eqn:P.
  - destruct (position_some _ _ _ P) as (b & r' & E1 & E2 & E3 & E4). rewrite E1.
    destruct (xml_arm_defined b E2) as (e & Ea). rewrite Ea.
    assert (L : (length r' < f)%nat).
    { rewrite E4, app_length in H. cbn [length] in H. lia. }
    destruct (IH r' ((out ++ firstn p rem) ++ e) true L) as (r & o & fd & R1 & R2 & R3 & R4).
    assert (X : existsb xml_special rem = true).
    { rewrite E4, existsb_app. cbn [existsb]. rewrite E2. now rewrite orb_true_r. }
    assert (Xb : xml_byte b = e) by (unfold xml_byte; now rewrite E2, Ea).
    exists r, o, fd. rewrite X, orb_true_r. repeat split; [exact R1 | | exact R3 | discriminate..].
    rewrite R2. rewrite E4 at 2. rewrite flat_map_app, (xml_byte_plain (firstn p rem)) by assumption.
    cbn [flat_map]. now rewrite Xb, <- !app_assoc.
  - pose proof (position_none _ _ P) as N. exists rem, out, found. repeat split.
    + now rewrite xml_byte_plain.
    + now rewrite N, orb_false_r.
Qed.

Lemma esc_xml_bytes bs : esc_xml_impl bs = Some (flat_map xml_byte bs).
Proof.
  unfold esc_xml_impl. destruct bs as [|b r]; [reflexivity|]. cbn [is_nil]. set (bs := b :: r).
  destruct (xml_loop_spec (S (length bs)) bs [] false) as (rm & o & fd & R1 & R2 & R3 & R4); [lia|].
  rewrite R1. cbn [orb app] in *. destruct fd.
  - now rewrite R2.
  - symmetry in R3. destruct (R4 R3) as [-> ->]. now rewrite xml_byte_plain.
Qed.

Lemma xml_class_ascii b : 128 <= b -> xml_special b = false.
Proof.
  intros H. destruct (xml_special b) eqn:E; [|reflexivity]. apply memb_In in E.
  assert (T : forallb (fun x => x <? 128) xml_class = true) by now vm_compute.
  rewrite forallb_forall in T. specialize (T b E). apply N.ltb_lt in T. lia.
Qed.

Lemma xml_byte_low c : c < 128 -> xml_byte c = encode (xml1_spec c).
Proof.
  intros H. apply list_eqb_eq.
  apply (range_forallb (fun c => list_eqb (xml_byte c) (encode (xml1_spec c))) 0 128);
    [now vm_compute | apply N.le_0_l | exact H].
Qed.

Lemma xml1_plain c : 128 <= c -> xml1_spec c = [c].
Proof. intros H. unfold xml1_spec. now rewrite !(proj2 (N.eqb_neq c _)) by lia. Qed.

(** a byte the table escapes is ASCII (C05's check of the table) *)
Lemma json_esc1_high b : 128 <= b -> C05.Model.esc1 b = [b].
Proof.
  intros H. apply C05.Proofs.esc1_raw. destruct (N.eq_dec (C05.Model.tbl b) 0) as [E|E]; [exact E|].
  destruct (C05.Proofs.entry_esc b E) as (_ & _ & L & _). lia.
Qed.

Lemma json_esc1_low c : c < 127 -> C05.Model.esc1 c = encode (json1_spec c).
Proof.
  intros H. apply list_eqb_eq.
  apply (range_forallb (fun c => list_eqb (C05.Model.esc1 c) (encode (json1_spec c))) 0 127);
    [now vm_compute | apply N.le_0_l | exact H].
Qed.

Lemma json1_plain c : 160 <= c -> json1_spec c = [c].
Proof.
  intros H. unfold json1_spec. rewrite !(proj2 (N.eqb_neq c _)) by lia.
  now rewrite (proj2 (N.ltb_ge c 32)), (proj2 (N.leb_gt c 159)), andb_false_r by lia.
Qed.

Lemma esc_json_impl_map s : esc_json_impl s = Some (34 :: flat_map C05.Model.esc1 (encode s) ++ [34]).
Proof. unfold esc_json_impl, C05.Model.escape. now rewrite C05.Proofs.p_escape_impl_is_map. Qed.

Lemma esc_json_refines s : has_del_c1 s = false -> esc_json_impl s = Some (encode (esc_json_spec s)).
Proof.
  intros H. rewrite esc_json_impl_map. f_equal. unfold esc_json_spec.
  assert (E : forall x, encode (34 :: x ++ [34]) = 34 :: encode x ++ [34]).
  { intros x. change (34 :: x ++ [34]) with ([34] ++ x ++ [34]). rewrite !encode_app. reflexivity. }
  rewrite E. f_equal. f_equal.
  apply bytewise_on; [apply json_esc1_high|]. intros c Hc.
  pose proof (existsb_false _ _ H c Hc) as D. unfold del_c1 in D.
  destruct (range_reflect 127 159 c) as [|R]; [discriminate|]. split.
  - intros L. apply json_esc1_low. lia.
  - intros G. apply json1_plain. lia.
Qed.

Lemma unxml_step_plain f c rest : c <> 38 -> c <> 60 -> c <> 62 -> c <> 34 -> c <> 39 ->
  unxml_f (S f) (c :: rest) = option_map (cons c) (unxml_f f rest).
Proof.
  intros. cbn [unxml_f].
  now rewrite (proj2 (N.eqb_neq c 38)), (proj2 (N.eqb_neq c 60)), (proj2 (N.eqb_neq c 62)),
    (proj2 (N.eqb_neq c 34)), (proj2 (N.eqb_neq c 39)).
Qed.

Lemma unxml_step f c rest :
  unxml_f (S f) (xml1_spec c ++ rest) = option_map (cons c) (unxml_f f rest).
Proof.
  unfold xml1_spec.
  destruct (N.eqb_spec c 60) as [->|n1]; [reflexivity|].
  destruct (N.eqb_spec c 62) as [->|n2]; [reflexivity|].
  destruct (N.eqb_spec c 38) as [->|n3]; [reflexivity|].
  destruct (N.eqb_spec c 34) as [->|n4]; [reflexivity|].
  destruct (N.eqb_spec c 39) as [->|n5]; [reflexivity|].
  now apply unxml_step_plain.
Qed.

Lemma xml1_length c : (1 <= length (xml1_spec c))%nat.
Proof. unfold xml1_spec. repeat destruct (_ =? _); apply le_n_S, Nat.le_0_l. Qed.

Lemma unxml_f_esc : forall s fuel, (length (esc_xml_spec s) < fuel)%nat -> unxml_f fuel (esc_xml_spec s) = Some s.
Proof.
  induction s as [|c s IH]; intros fuel H.
  - destruct fuel; [cbn in H; lia|reflexivity].
  - change (esc_xml_spec (c :: s)) with (xml1_spec c ++ esc_xml_spec s) in *.
    rewrite app_length in H. pose proof (xml1_length c). destruct fuel as [|f]; [lia|].
    rewrite unxml_step, IH by lia. reflexivity.
Qed.

Lemma sh_single_esc : forall s,
  sh_unquote ShSingle (flat_map (repl1 39 [39; 34; 39; 34; 39]) s ++ [39]) = Some s.
Proof.
  induction s as [|c s IH]; [reflexivity|]. cbn [flat_map]. rewrite <- app_assoc. unfold repl1 at 1.
  destruct (N.eqb_spec c 39) as [->|n].
  - change (sh_unquote ShSingle ([39; 34; 39; 34; 39] ++ ?r)) with (option_map (cons 39) (sh_unquote ShSingle r)).
    now rewrite IH.
  - cbn [app sh_unquote]. apply N.eqb_neq in n. now rewrite n, IH.
Qed.

Lemma int_spec_unfold s :
  int_spec s = match s with
               | c :: r => if c =? 45 then option_map (fun n => (- Z.of_N n)%Z) (nat_spec 10 r)
                           else option_map Z.of_N (nat_spec 10 s)
               | [] => None
               end.
Proof.
  destruct s as [|c r]; [reflexivity|]. destruct (N.eqb_spec c 45) as [->|n]; [reflexivity|].
  (* [int_spec] matches on the literal 45 = 0b101101: six bits to take apart *)
  destruct c as [|p]; [reflexivity|].
  do 6 (try (destruct p as [p|p|]; try reflexivity)). now elim n.
Qed.

Lemma parse_int_split s : exists (neg : bool) r,
  int_spec s = option_map (fun n => if neg then - Z.of_N n else Z.of_N n)%Z (nat_spec 10 r) /\
  parse_int_impl s = match r with [] => RErr | _ => pnum_res neg (nat_impl 10 r) end.
Proof.
  rewrite int_spec_unfold. destruct s as [|c r]; [now exists false, []|]. unfold parse_int_impl.
  change parse_int_minus with 45. destruct (c =? 45); [exists true, r | exists false, (c :: r)]; now split.
Qed.

Lemma parse_int_exact s z : int_spec s = Some z -> (Z.abs z < 2 ^ 53)%Z -> parse_int_impl s = RInt z.
Proof.
  destruct (parse_int_split s) as (neg & r & -> & ->).
  destruct (nat_spec 10 r) as [n|] eqn:E; [|discriminate]. intros [= <-] Hz.
  destruct r as [|d r']; [discriminate|]. rewrite (nat_impl_exact 10 _ n); [reflexivity | now left | exact E |].
  apply N2Z.inj_lt. rewrite <- (Z.abs_eq (Z.of_N n)) by apply N2Z.is_nonneg.
  destruct neg; [rewrite <- Z.abs_opp|]; exact Hz.
Qed.

(** non-vacuity: the hypotheses of the conditional theorems hold on non-trivial instances *)
Example esc_json_refines_inst :
  has_del_c1 [97; 34; 233; 10; 1; 92; 128512] = false /\
  esc_json_impl [97; 34; 233; 10; 1; 92; 128512] = Some (encode (esc_json_spec [97; 34; 233; 10; 1; 92; 128512])).
Proof. split; [reflexivity|]. now apply esc_json_refines. Qed.
Example eq_ic_refines_inst : eq_ic_impl (encode [97; 233; 75]) (encode [65; 233; 107]) = eq_ic_spec [97; 233; 75] [65; 233; 107]
  /\ eq_ic_spec [97; 233; 75] [65; 233; 107] = true.
Proof. split; [now apply eq_ic_refines|reflexivity]. Qed.
Example parse_int_exact_inst : int_spec [45; 49; 50] = Some (-12)%Z /\ parse_int_impl [45; 49; 50] = RInt (-12).
Proof. split; [reflexivity|]. now apply parse_int_exact. Qed.
Example parse_int_rejects_inst : int_spec [45] = None /\ int_spec [49; 45] = None /\ parse_int_impl [49; 45] = RErr.
Proof. repeat split; try reflexivity. Qed.
Example str_replace_refines_inst :
  str_replace_impl [233; 97; 233] [233] [128512] = Some (encode [128512; 97; 128512]).
Proof. now rewrite str_replace_refines. Qed.
Example strip_shape_inst : strip_spec [32; 97; 32; 98; 32] [32] = [97; 32; 98].
Proof. reflexivity. Qed.
