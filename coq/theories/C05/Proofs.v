(** C05 — lemmas.  The table is evaluated once ([p_table]) and used through [esc1_spec]; the round
    trip is [read_wr].  A [p_...] lemma has the statement of a theorem of Properties.v. *)
From Coq Require Import List NArith Bool Arith Lia.
From JrV Require Import Gen.GenEscape C05.Model.
Import ListNotations.
Open Scope N_scope.

(** boolean hypotheses about [N] comparisons, as propositions *)
Ltac b2p :=
  repeat match goal with
  | H : _ && _ = true |- _ => apply andb_true_iff in H; destruct H
  | H : _ || _ = true |- _ => apply orb_true_iff in H; destruct H
  | H : _ || _ = false |- _ => apply orb_false_iff in H; destruct H
  | H : negb _ = true |- _ => apply negb_true_iff in H
  | H : negb _ = false |- _ => apply negb_false_iff in H
  | H : (_ =? _) = true |- _ => apply N.eqb_eq in H
  | H : (_ =? _) = false |- _ => apply N.eqb_neq in H
  | H : (_ <=? _) = true |- _ => apply N.leb_le in H
  | H : (_ <=? _) = false |- _ => apply N.leb_gt in H
  | H : (_ <? _) = true |- _ => apply N.ltb_lt in H
  | H : (_ <? _) = false |- _ => apply N.ltb_ge in H
  end.

Lemma p_table : Nat.eqb (length escape_table) 256 && forallb entry_ok (map N.of_nat (seq 0 256)) = true.
Proof. vm_compute. reflexivity. Qed.

Lemma table_ok_true : table_ok = true.
Proof. exact p_table. Qed.

Lemma table_len : length escape_table = 256%nat.
Proof. apply Nat.eqb_eq. exact (proj1 (andb_prop _ _ p_table)). Qed.

(** beyond the table [tbl] is 0, and such a [b] is a legal raw character *)
Lemma entry_ok_all : forall b, entry_ok b = true.
Proof.
  intro b. destruct (N.ltb_spec b 256) as [Hlt | Hge].
  - apply (proj1 (forallb_forall _ _) (proj2 (andb_prop _ _ p_table))).
    rewrite <- (N2Nat.id b). apply in_map, in_seq. lia.
  - unfold entry_ok, tbl. rewrite nth_overflow by (rewrite table_len; lia). cbn [N.eqb].
    rewrite (proj2 (N.leb_le 32 b)), (proj2 (N.eqb_neq b 34)), (proj2 (N.eqb_neq b 92)) by lia.
    reflexivity.
Qed.

Lemma entry_raw : forall b, tbl b = 0 -> 32 <= b /\ b <> 34 /\ b <> 92.
Proof.
  intros b Hb. pose proof (entry_ok_all b) as H. unfold entry_ok in H. rewrite Hb in H.
  cbn [N.eqb] in H. b2p. auto.
Qed.

Lemma entry_esc : forall b, tbl b <> 0 ->
  exists sq, esc_seq b (tbl b) = Some sq /\ b < 128 /\
             forallb printable_ascii sq = true /\ seq_decodes sq b = true.
Proof.
  intros b Hb. pose proof (entry_ok_all b) as H. unfold entry_ok in H.
  apply N.eqb_neq in Hb. rewrite Hb in H.
  destruct (esc_seq b (tbl b)) as [sq|]; [|discriminate].
  exists sq. b2p. auto.
Qed.

Lemma esc1_raw : forall b, tbl b = 0 -> esc1 b = [b].
Proof. intros b H. unfold esc1. rewrite H. reflexivity. Qed.

Lemma esc1_esc : forall b sq, tbl b <> 0 -> esc_seq b (tbl b) = Some sq -> esc1 b = sq.
Proof. intros b sq H E. unfold esc1. apply N.eqb_neq in H. rewrite H, E. reflexivity. Qed.

(** all that the later facts need of the table *)
Lemma esc1_spec : forall b,
  (esc1 b = [b] /\ 32 <= b /\ b <> 34 /\ b <> 92) \/
  (b < 128 /\ forallb printable_ascii (esc1 b) = true /\ seq_decodes (esc1 b) b = true).
Proof.
  intro b. destruct (N.eq_dec (tbl b) 0) as [E|E].
  - left. split; [apply esc1_raw | apply entry_raw]; exact E.
  - right. destruct (entry_esc b E) as (sq & Hsq & H). rewrite (esc1_esc b sq E Hsq). exact H.
Qed.

Lemma skipn_S_tail : forall (A : Type) i (l : list A) b r, skipn i l = b :: r -> skipn (S i) l = r.
Proof.
  induction i; intros l b r H.
  - cbn in H. subst l. reflexivity.
  - destruct l; [discriminate|]. exact (IHi l b r H).
Qed.

Lemma firstn_snoc : forall (A : Type) k (l : list A) b r,
  skipn k l = b :: r -> firstn (S k) l = firstn k l ++ [b].
Proof.
  induction k; intros l b r H.
  - cbn in H. subst l. reflexivity.
  - destruct l as [|a l]; [discriminate|].
    change (a :: firstn (S k) l = a :: firstn k l ++ [b]). rewrite (IHk l b r H). reflexivity.
Qed.

Lemma skipn_skipn : forall (A : Type) y x (l : list A), skipn x (skipn y l) = skipn (x + y) l.
Proof.
  induction y; intros x l.
  - rewrite Nat.add_0_r. reflexivity.
  - rewrite Nat.add_succ_r. destruct l as [|a l]; [apply skipn_nil | apply IHy].
Qed.

Lemma slice_snoc : forall all start i b r,
  (start <= i)%nat -> skipn i all = b :: r -> slice all start (S i) = slice all start i ++ [b].
Proof.
  intros all start i b r Hle H. unfold slice. rewrite Nat.sub_succ_l by exact Hle.
  apply firstn_snoc with (r := r). rewrite skipn_skipn, Nat.sub_add by exact Hle. exact H.
Qed.

Lemma slice_empty : forall all i, slice all i i = [].
Proof. intros. unfold slice. rewrite Nat.sub_diag. reflexivity. Qed.

Lemma slice_to_end : forall all start i, skipn i all = [] -> slice all start i = skipn start all.
Proof.
  intros all start i H. unfold slice. apply firstn_all2.
  apply (f_equal (@length N)) in H. rewrite skipn_length in *. cbn [length] in H. lia.
Qed.

Lemma esc_loop_spec : forall rest all i start buf,
  skipn i all = rest -> (start <= i)%nat ->
  esc_loop all rest i start buf = Some (buf ++ slice all start i ++ flat_map esc1 rest ++ [34]).
Proof.
  induction rest as [|b rest IH]; intros all i start buf Hsk Hle.
  - cbn [esc_loop flat_map]. rewrite (slice_to_end _ _ _ Hsk).
    destruct (Nat.eqb start (length all)) eqn:E.
    + apply Nat.eqb_eq in E. rewrite E, skipn_all. reflexivity.
    + rewrite <- app_assoc. reflexivity.
  - cbn [esc_loop flat_map].
    pose proof (skipn_S_tail _ _ _ _ _ Hsk) as Hsk'.
    destruct (tbl b =? 0) eqn:E.
    + apply N.eqb_eq in E. rewrite (IH all (S i) start buf Hsk') by lia.
      rewrite (slice_snoc _ _ _ _ _ Hle Hsk), (esc1_raw _ E), <- !app_assoc. reflexivity.
    + apply N.eqb_neq in E. destruct (entry_esc b E) as (sq & Hsq & _).
      rewrite Hsq, (esc1_esc _ _ E Hsq), (IH all (S i) (S i) _ Hsk'), slice_empty by lia.
      (* the flush of [start..i) is skipped exactly when that slice is empty *)
      destruct (Nat.ltb_spec start i) as [L|L].
      * rewrite <- !app_assoc. reflexivity.
      * replace start with i by lia. rewrite slice_empty, <- !app_assoc. reflexivity.
Qed.

Lemma escape_buf_is_ref : forall bs buf, escape_buf bs buf = Some (buf ++ escape_ref bs).
Proof.
  intros bs buf. unfold escape_buf, escape_ref.
  rewrite (esc_loop_spec bs bs 0 0 (buf ++ [34])) by (reflexivity || lia).
  rewrite slice_empty, <- app_assoc. reflexivity.
Qed.

Lemma escape_is_ref : forall bs, escape bs = Some (escape_ref bs).
Proof. intro bs. apply (escape_buf_is_ref bs []). Qed.

Lemma read_raw : forall b r, 32 <= b -> b <> 34 -> b <> 92 ->
  read_str (b :: r) = prepend [b] (read_str r).
Proof.
  intros b r H1 H2 H3. cbn [read_str].
  rewrite (proj2 (N.eqb_neq b 34) H2), (proj2 (N.eqb_neq b 92) H3), (proj2 (N.ltb_ge b 32) H1).
  reflexivity.
Qed.

Lemma seq_decodes_read : forall sq b r,
  seq_decodes sq b = true -> read_str (sq ++ r) = prepend [b] (read_str r).
Proof.
  intros sq b r H. unfold seq_decodes in H.
  destruct sq as [|c0 [|c1 [|c2 [|c3 [|c4 [|c5 [|c6 sq]]]]]]]; try discriminate.
  - destruct (simple_esc c1) as [c|] eqn:Es; [|rewrite andb_false_r in H; discriminate].
    apply andb_prop in H as [H Hc]. apply andb_prop in H as [H0 H1].
    apply N.eqb_eq in H0, Hc. apply negb_true_iff in H1. subst c0 c.
    cbn [app read_str N.eqb Pos.eqb]. rewrite H1, Es. reflexivity.
  - destruct (hex4 c2 c3 c4 c5) as [cp|] eqn:Eh; [|rewrite andb_false_r in H; discriminate].
    b2p. subst c0 c1 cp.
    cbn [app read_str N.eqb Pos.eqb]. rewrite Eh.
    unfold is_high, is_low, utf8_enc.
    rewrite (proj2 (N.leb_gt 55296 b)), (proj2 (N.leb_gt 56320 b)), (proj2 (N.ltb_lt b 128)) by lia.
    reflexivity.
Qed.

Lemma read_esc1 : forall b r, read_str (esc1 b ++ r) = prepend [b] (read_str r).
Proof.
  intros b r. destruct (esc1_spec b) as [(E & H1 & H2 & H3) | (_ & _ & Hd)].
  - rewrite E. apply read_raw; assumption.
  - apply seq_decodes_read. exact Hd.
Qed.

Lemma read_str_escaped : forall bs rest,
  read_str (flat_map esc1 bs ++ 34 :: rest) = Some (bs, rest).
Proof.
  induction bs as [|b bs IH]; intro rest.
  - reflexivity.
  - cbn [flat_map]. rewrite <- app_assoc, read_esc1, IH. reflexivity.
Qed.

Lemma escape_ref_app : forall k R, escape_ref k ++ R = 34 :: flat_map esc1 k ++ 34 :: R.
Proof. intros. unfold escape_ref. cbn [app]. rewrite <- app_assoc. reflexivity. Qed.

Lemma unescape_escape_ref : forall bs, json_unescape (escape_ref bs) = Some bs.
Proof.
  intro bs. rewrite <- (app_nil_r (escape_ref bs)), escape_ref_app.
  unfold json_unescape. cbn [N.eqb Pos.eqb]. rewrite read_str_escaped. reflexivity.
Qed.

Lemma printable_range : forall sq, forallb printable_ascii sq = true -> Forall (fun c => 32 <= c < 128) sq.
Proof.
  intros sq H. apply Forall_forall. intros c Hc. apply (proj1 (forallb_forall _ _) H) in Hc.
  unfold printable_ascii in Hc. b2p. lia.
Qed.

Lemma esc1_no_control : forall b, Forall (fun c => 32 <= c) (esc1 b).
Proof.
  intro b. destruct (esc1_spec b) as [(E & H & _) | (_ & Hp & _)].
  - rewrite E. constructor; [exact H | constructor].
  - apply (Forall_impl _ (fun c H => proj1 H) (printable_range _ Hp)).
Qed.

Lemma esc1_ascii : forall b, b < 128 -> Forall (fun c => c < 128) (esc1 b).
Proof.
  intros b Hb. destruct (esc1_spec b) as [(E & _) | (_ & Hp & _)].
  - rewrite E. constructor; [exact Hb | constructor].
  - apply (Forall_impl _ (fun c H => proj2 H) (printable_range _ Hp)).
Qed.

Lemma escape_ref_no_control : forall bs, Forall (fun c => 32 <= c) (escape_ref bs).
Proof.
  intro bs. unfold escape_ref. constructor; [lia|]. apply Forall_app. split.
  - apply Forall_flat_map, Forall_forall. intros b _. apply esc1_no_control.
  - constructor; [lia|constructor].
Qed.

(** the test that [C05_escape_preserves_utf8] filters with *)
Definition high (c : N) : bool := 128 <=? c.

Lemma filter_high_ascii : forall l, Forall (fun c => c < 128) l -> filter high l = [].
Proof.
  induction 1 as [|c l Hc _ IH]; [reflexivity|].
  cbn [filter]. unfold high at 1. rewrite (proj2 (N.leb_gt 128 c) Hc). exact IH.
Qed.

Lemma esc1_high : forall b, filter high (esc1 b) = filter high [b].
Proof.
  intro b. destruct (esc1_spec b) as [(E & _) | (Hb & _)].
  - rewrite E. reflexivity.
  - rewrite !filter_high_ascii; [reflexivity | repeat constructor; exact Hb | apply esc1_ascii, Hb].
Qed.

Lemma escape_ref_high : forall bs, filter high (escape_ref bs) = filter high bs.
Proof.
  intro bs. unfold escape_ref. cbn [filter]. change (high 34) with false. cbv iota.
  rewrite filter_app. cbn [filter]. change (high 34) with false. cbv iota. rewrite app_nil_r.
  induction bs as [|b bs IH]; [reflexivity|].
  cbn [flat_map]. rewrite filter_app, esc1_high, IH. symmetry. apply (filter_app high [b] bs).
Qed.

Lemma utf8_ascii_app : forall p r, Forall (fun c => c < 128) p -> utf8 r -> utf8 (p ++ r).
Proof.
  intros p r Hp Hr. induction Hp as [|c p Hc _ IH]; [exact Hr|].
  apply utf8_ascii; assumption.
Qed.

Lemma mb_seq_high : forall s, mb_seq s = true -> Forall (fun c => 128 <= c) s.
Proof.
  intros s H. unfold mb_seq, is_tail, in_rng in H.
  destruct s as [|a [|b [|c [|d [|e s]]]]]; try discriminate; b2p; repeat constructor; lia.
Qed.

Lemma flat_map_high : forall s, Forall (fun c => 128 <= c) s -> flat_map esc1 s = s.
Proof.
  induction 1 as [|c s Hc _ IH]; [reflexivity|].
  cbn [flat_map]. rewrite IH. destruct (esc1_spec c) as [(E & _) | (Hlt & _)]; [|lia].
  rewrite E. reflexivity.
Qed.

Lemma utf8_flat_map : forall bs r, utf8 bs -> utf8 r -> utf8 (flat_map esc1 bs ++ r).
Proof.
  intros bs r H Hr. induction H as [|b t Hb Ht IH|s t Hs Ht IH].
  - exact Hr.
  - cbn [flat_map]. rewrite <- app_assoc. apply utf8_ascii_app; [apply esc1_ascii, Hb | exact IH].
  - rewrite flat_map_app, (flat_map_high s (mb_seq_high s Hs)), <- app_assoc.
    apply utf8_multi; assumption.
Qed.

Lemma escape_ref_utf8 : forall bs, utf8 bs -> utf8 (escape_ref bs).
Proof.
  intros bs H. unfold escape_ref. apply utf8_ascii; [lia|].
  apply utf8_flat_map; [exact H|]. apply utf8_ascii; [lia|constructor].
Qed.

(** induction with [Forall] hypotheses for the nested lists *)
Section jval_ind2.
  Variable P : jval -> Prop.
  Hypothesis Hnull : P JNull.
  Hypothesis Hbool : forall b, P (JBool b).
  Hypothesis Hnum : forall t, P (JNum t).
  Hypothesis Hstr : forall s, P (JStr s).
  Hypothesis Harr : forall xs, Forall P xs -> P (JArr xs).
  Hypothesis Hobj : forall fs, Forall (fun kv => P (snd kv)) fs -> P (JObj fs).
  Hypothesis Hfun : P JFun.
  Fixpoint jval_ind2 (v : jval) : P v :=
    match v with
    | JNull => Hnull
    | JBool b => Hbool b
    | JNum t => Hnum t
    | JStr s => Hstr s
    | JArr xs =>
        Harr xs ((fix go (l : list jval) : Forall P l :=
                    match l with
                    | [] => Forall_nil P
                    | x :: r => Forall_cons x (jval_ind2 x) (go r)
                    end) xs)
    | JObj fs =>
        Hobj fs ((fix go (l : list (bytes * jval)) : Forall (fun kv => P (snd kv)) l :=
                    match l with
                    | [] => Forall_nil _
                    | kv :: r => Forall_cons kv (jval_ind2 (snd kv)) (go r)
                    end) fs)
    | JFun => Hfun
    end.
End jval_ind2.

(** the element / field loops of [wr] as stand-alone functions *)
Fixpoint wr_items (o : opts) (cur' : bytes) (first : bool) (xs : list jval) : option bytes :=
  match xs with
  | [] => Some []
  | x :: xs' =>
      match wr o cur' x, wr_items o cur' false xs' with
      | Some bx, Some br => Some (comma first ++ sep_before o cur' first ++ bx ++ br)
      | _, _ => None
      end
  end.

Fixpoint wr_fields (o : opts) (cur' : bytes) (first : bool) (fs : list (bytes * jval)) : option bytes :=
  match fs with
  | [] => Some []
  | (k, x) :: fs' =>
      match escape k, wr o cur' x, wr_fields o cur' false fs' with
      | Some bk, Some bx, Some br =>
          Some (comma first ++ sep_before o cur' first ++ bk ++ o_kvsep o ++ bx ++ br)
      | _, _, _ => None
      end
  end.

Lemma wr_arr : forall o cur xs,
  wr o cur (JArr xs) =
  match wr_items o (cur ++ o_padding o) true xs with
  | Some body => Some ([91] ++ body ++ closing o cur (is_nil xs) ++ [93])
  | None => None
  end.
Proof.
  intros o cur xs. cbn [wr].
  match goal with
  | |- match ?F true xs with _ => _ end = _ =>
      assert (E : forall l first, F first l = wr_items o (cur ++ o_padding o) first l)
  end.
  { induction l as [|x l IH]; intro first; [reflexivity|].
    cbn [wr_items]. rewrite <- IH. reflexivity. }
  rewrite E. reflexivity.
Qed.

Lemma wr_obj : forall o cur fs,
  wr o cur (JObj fs) =
  match wr_fields o (cur ++ o_padding o) true fs with
  | Some body => Some ([123] ++ body ++ closing o cur (is_nil fs) ++ [125])
  | None => None
  end.
Proof.
  intros o cur fs. cbn [wr].
  match goal with
  | |- match ?F true fs with _ => _ end = _ =>
      assert (E : forall l first, F first l = wr_fields o (cur ++ o_padding o) first l)
  end.
  { induction l as [|[k x] l IH]; intro first; [reflexivity|].
    cbn [wr_fields]. rewrite <- IH. reflexivity. }
  rewrite E. reflexivity.
Qed.

Lemma wr_items_cons : forall o c first x xs body,
  wr_items o c first (x :: xs) = Some body ->
  exists bx br, wr o c x = Some bx /\ wr_items o c false xs = Some br /\
                body = comma first ++ sep_before o c first ++ bx ++ br.
Proof.
  intros o c first x xs body H. cbn [wr_items] in H.
  destruct (wr o c x) as [bx|]; [|discriminate].
  destruct (wr_items o c false xs) as [br|]; [|discriminate].
  injection H as <-. eauto.
Qed.

Lemma wr_fields_cons : forall o c first k x fs body,
  wr_fields o c first ((k, x) :: fs) = Some body ->
  exists bx br, wr o c x = Some bx /\ wr_fields o c false fs = Some br /\
                body = comma first ++ sep_before o c first ++ escape_ref k ++ o_kvsep o ++ bx ++ br.
Proof.
  intros o c first k x fs body H. cbn [wr_fields] in H. rewrite escape_is_ref in H.
  destruct (wr o c x) as [bx|]; [|discriminate].
  destruct (wr_fields o c false fs) as [br|]; [|discriminate].
  injection H as <-. eauto.
Qed.

Lemma all_ws_app : forall a b, all_ws (a ++ b) = all_ws a && all_ws b.
Proof. intros. apply forallb_app. Qed.

Lemma skip_ws_ws : forall w s, all_ws w = true -> skip_ws (w ++ s) = skip_ws s.
Proof.
  induction w as [|c w IH]; intros s H; [reflexivity|].
  apply andb_prop in H as [Hc Hw]. cbn [app skip_ws]. rewrite Hc. exact (IH s Hw).
Qed.

Lemma skip_ws_head : forall c t, is_ws c = false -> skip_ws (c :: t) = c :: t.
Proof. intros c t H. cbn [skip_ws]. rewrite H. reflexivity. Qed.

Lemma skip_ws_to : forall w c t, all_ws w = true -> is_ws c = false -> skip_ws (w ++ c :: t) = c :: t.
Proof. intros w c t Hw Hc. rewrite (skip_ws_ws w _ Hw). exact (skip_ws_head c t Hc). Qed.

Lemma skip_ws_split : forall l, exists w, l = w ++ skip_ws l /\ all_ws w = true.
Proof.
  induction l as [|c l (w & E & Hw)].
  - exists []. split; reflexivity.
  - cbn [skip_ws]. destruct (is_ws c) eqn:Hc.
    + exists (c :: w). split; [cbn [app]; f_equal; exact E|].
      cbn [all_ws forallb]. rewrite Hc. exact Hw.
    + exists []. split; reflexivity.
Qed.

Lemma kvsep_split : forall kv, kvsep_ok kv = true ->
  exists w1 w2, kv = w1 ++ 58 :: w2 /\ all_ws w1 = true /\ all_ws w2 = true.
Proof.
  intros kv H. unfold kvsep_ok in H. destruct (skip_ws_split kv) as (w & E & Hw).
  destruct (skip_ws kv) as [|c r]; [discriminate|].
  apply andb_prop in H as [Hc Hr]. apply N.eqb_eq in Hc. subst c.
  exists w, r. auto.
Qed.

Lemma opts_ok_parts : forall o, opts_ok o = true ->
  all_ws (o_padding o) = true /\ all_ws (o_newline o) = true /\ kvsep_ok (o_kvsep o) = true.
Proof. intros o H. unfold opts_ok in H. b2p. auto. Qed.

Lemma sep_ws : forall o cur first, opts_ok o = true -> all_ws cur = true ->
  all_ws (sep_before o cur first) = true.
Proof.
  intros o cur first Ho Hc. destruct (opts_ok_parts o Ho) as (_ & Hn & _).
  unfold sep_before. destruct (o_mtype o), first; rewrite ?all_ws_app, ?Hn, ?Hc; reflexivity.
Qed.

Lemma closing_ws : forall o cur e, opts_ok o = true -> all_ws cur = true ->
  all_ws (closing o cur e) = true.
Proof.
  intros o cur e Ho Hc. destruct (opts_ok_parts o Ho) as (_ & Hn & _).
  unfold closing. destruct (o_mtype o), e; rewrite ?all_ws_app, ?Hn, ?Hc; reflexivity.
Qed.

Lemma digit_num_char : forall b, is_digit b = true -> is_num_char b = true.
Proof. intros b H. unfold is_num_char. rewrite H. reflexivity. Qed.

Lemma digit19_num_char : forall b, is_digit19 b = true -> is_num_char b = true.
Proof.
  intros b H. apply digit_num_char. unfold is_digit19 in H. unfold is_digit. b2p.
  apply andb_true_iff. split; apply N.leb_le; lia.
Qed.

Lemma num_step_char : forall s b s', num_step s b = Some s' -> is_num_char b = true.
Proof.
  intros s b s' H.
  destruct s; cbn [num_step] in H;
    repeat match type of H with
           | (if ?c then _ else _) = _ => destruct c eqn:?; cbv iota in H
           end; try discriminate;
    try (apply digit_num_char; assumption);
    try (apply digit19_num_char; assumption);
    b2p; subst; reflexivity.
Qed.

Lemma num_run_chars : forall tok s, num_run s tok = true -> forallb is_num_char tok = true.
Proof.
  induction tok as [|b tok IH]; intros s H; [reflexivity|].
  cbn [num_run] in H. destruct (num_step s b) as [s'|] eqn:E; [|discriminate].
  cbn [forallb]. rewrite (num_step_char _ _ _ E). exact (IH s' H).
Qed.

Definition delim (rest : bytes) : Prop :=
  match rest with [] => True | c :: _ => is_num_char c = false end.

Lemma span_num_app : forall tok rest,
  forallb is_num_char tok = true -> delim rest -> span_num (tok ++ rest) = (tok, rest).
Proof.
  induction tok as [|b tok IH]; intros rest Ht Hr.
  - cbn [app]. destruct rest as [|c r]; [reflexivity|]. cbn [span_num]. rewrite Hr. reflexivity.
  - apply andb_prop in Ht as [Hb Ht].
    cbn [app span_num]. rewrite Hb, (IH rest Ht Hr). reflexivity.
Qed.

Lemma num_ok_head : forall tok, num_ok tok = true -> exists c t, tok = c :: t /\ ((c =? 45) || is_digit c = true).
Proof.
  intros [|c t] H; [discriminate|]. exists c, t. split; [reflexivity|].
  unfold num_ok in H. cbn [num_run num_step] in H.
  destruct (c =? 45) eqn:E1; [reflexivity|]. cbn [orb].
  unfold is_digit. destruct (c =? 48) eqn:E2.
  - apply N.eqb_eq in E2. subst c. reflexivity.
  - destruct (is_digit19 c) eqn:E3; [|discriminate].
    unfold is_digit19 in E3. b2p. apply andb_true_iff. split; apply N.leb_le; lia.
Qed.

Lemma ws_not_num : forall c, is_ws c = true -> is_num_char c = false.
Proof. intros c H. unfold is_ws in H. b2p; subst; reflexivity. Qed.

Lemma delim_ws_then : forall w c rest, all_ws w = true -> is_num_char c = false -> delim (w ++ c :: rest).
Proof.
  intros [|a w] c rest Hw Hc; [exact Hc|].
  apply andb_prop in Hw as [Ha _]. exact (ws_not_num a Ha).
Qed.

(** first character of a value text *)
Definition vstart (c : N) : bool :=
  (c =? 110) || (c =? 116) || (c =? 102) || (c =? 34) || (c =? 91) || (c =? 123) || (c =? 45) || is_digit c.

Definition vhead (s : bytes) : bool := match s with c :: _ => vstart c | [] => false end.

Lemma vstart_not_ws : forall c, vstart c = true -> is_ws c = false.
Proof.
  intros c H. destruct (is_ws c) eqn:W; [|reflexivity].
  unfold is_ws in W. b2p; subst; discriminate H.
Qed.

Lemma vhead_app : forall s t, vhead s = true -> vhead (s ++ t) = true.
Proof. intros [|c s] t H; [discriminate | exact H]. Qed.

Lemma skip_ws_vhead : forall w s, all_ws w = true -> vhead s = true -> skip_ws (w ++ s) = s.
Proof.
  intros w [|c s] Hw Hs; [discriminate|]. exact (skip_ws_to w c s Hw (vstart_not_ws c Hs)).
Qed.

Lemma read_value_str : forall f s r, read_value (S f) (escape_ref s ++ r) = Some (JStr s, r).
Proof.
  intros f s r. rewrite escape_ref_app. cbn [read_value N.eqb Pos.eqb].
  rewrite read_str_escaped. reflexivity.
Qed.

Lemma read_value_num : forall f tok rest, num_ok tok = true -> delim rest ->
  read_value (S f) (tok ++ rest) = Some (JNum tok, rest).
Proof.
  intros f tok rest Hn Hd.
  pose proof (span_num_app tok rest (num_run_chars _ _ Hn) Hd) as Hspan.
  destruct (num_ok_head tok Hn) as (c & t & -> & Hc).
  assert (Hnc : is_num_char c = true).
  { unfold is_num_char. apply orb_true_iff in Hc as [Hc|Hc]; rewrite Hc, ?orb_true_r; reflexivity. }
  assert (E : (c =? 110) = false /\ (c =? 116) = false /\ (c =? 102) = false /\
              (c =? 34) = false /\ (c =? 91) = false /\ (c =? 123) = false).
  { unfold is_digit in Hc. apply orb_true_iff in Hc as [Hc|Hc]; b2p; repeat split; apply N.eqb_neq; lia. }
  destruct E as (E1 & E2 & E3 & E4 & E5 & E6).
  cbn [app] in *. cbn [read_value]. rewrite E1, E2, E3, E4, E5, E6, Hnc, Hspan, Hn. reflexivity.
Qed.

(** after the opening bracket: ws close, or ws list *)
Definition read_open {A} (close : N) (rd : bytes -> option (list A * bytes)) (mk : list A -> jval) (r : bytes)
  : option (jval * bytes) :=
  match skip_ws r with
  | [] => None
  | c :: r2 =>
      if c =? close then Some (mk [], r2)
      else match rd (c :: r2) with Some (xs, r') => Some (mk xs, r') | None => None end
  end.

Lemma read_value_arr : forall f r, read_value (S f) (91 :: r) = read_open 93 (read_elems f) JArr r.
Proof. reflexivity. Qed.

Lemma read_value_obj : forall f r, read_value (S f) (123 :: r) = read_open 125 (read_members f) JObj r.
Proof. reflexivity. Qed.

Lemma read_open_nil : forall A close rd mk w r, all_ws w = true -> is_ws close = false ->
  @read_open A close rd mk (w ++ close :: r) = Some (mk [], r).
Proof.
  intros A close rd mk w r Hw Hc. unfold read_open.
  rewrite (skip_ws_to w close r Hw Hc), N.eqb_refl. reflexivity.
Qed.

Lemma read_open_cons : forall A close rd mk w s, all_ws w = true -> vhead s = true -> vstart close = false ->
  @read_open A close rd mk (w ++ s) = match rd s with Some (xs, r') => Some (mk xs, r') | None => None end.
Proof.
  intros A close rd mk w s Hw Hs Hc. unfold read_open. rewrite (skip_ws_vhead w s Hw Hs).
  destruct s as [|c s]; [discriminate|]. destruct (N.eqb_spec c close) as [->|_]; [|reflexivity].
  cbn [vhead] in Hs. congruence.
Qed.

(** after an element or member [x]: ws "," ws rest, or ws close *)
Definition read_tail {A} (close : N) (more : bytes -> option (list A * bytes)) (x : A) (r : bytes)
  : option (list A * bytes) :=
  match skip_ws r with
  | [] => None
  | d :: r1 =>
      if d =? 44 then match more (skip_ws r1) with Some (xs, r') => Some (x :: xs, r') | None => None end
      else if d =? close then Some ([x], r1)
      else None
  end.

Lemma read_tail_last : forall A close more (x : A) w r,
  all_ws w = true -> is_ws close = false -> (close =? 44) = false ->
  read_tail close more x (w ++ close :: r) = Some ([x], r).
Proof.
  intros A close more x w r Hw Hc H44. unfold read_tail.
  rewrite (skip_ws_to w close r Hw Hc), H44, N.eqb_refl. reflexivity.
Qed.

Lemma read_tail_more : forall A close more (x : A) w w' s,
  all_ws w = true -> all_ws w' = true -> vhead s = true ->
  read_tail close more x (w ++ 44 :: w' ++ s) =
  match more s with Some (xs, r') => Some (x :: xs, r') | None => None end.
Proof.
  intros A close more x w w' s Hw Hw' Hs. unfold read_tail.
  rewrite (skip_ws_to w 44 _ Hw eq_refl). cbn [N.eqb Pos.eqb].
  rewrite (skip_ws_vhead w' s Hw' Hs). reflexivity.
Qed.

Lemma read_elems_eq : forall f s, read_elems (S f) s =
  match read_value f s with Some (x, r) => read_tail 93 (read_elems f) x r | None => None end.
Proof. reflexivity. Qed.

(** member = string ws ":" ws value *)
Lemma read_members_key : forall f k kv s, kvsep_ok kv = true -> vhead s = true ->
  read_members (S f) (escape_ref k ++ kv ++ s) =
  match read_value f s with Some (x, r) => read_tail 125 (read_members f) (k, x) r | None => None end.
Proof.
  intros f k kv s Hkv Hs. destruct (kvsep_split kv Hkv) as (w1 & w2 & -> & Hw1 & Hw2).
  rewrite escape_ref_app, <- app_assoc. cbn [read_members N.eqb Pos.eqb app].
  rewrite read_str_escaped, (skip_ws_to w1 58 _ Hw1 eq_refl). cbn [N.eqb Pos.eqb].
  rewrite (skip_ws_vhead w2 s Hw2 Hs). reflexivity.
Qed.

(** fuel that [read_value] needs for the text of [v] *)
Fixpoint need (v : jval) : nat :=
  match v with
  | JArr xs => S ((fix go (l : list jval) : nat := match l with [] => O | x :: r => S (need x + go r) end) xs)
  | JObj fs => S ((fix go (l : list (bytes * jval)) : nat :=
                     match l with [] => O | kv :: r => S (need (snd kv) + go r) end) fs)
  | _ => 1%nat
  end.

Fixpoint need_elems (l : list jval) : nat := match l with [] => O | x :: r => S (need x + need_elems r) end.
Fixpoint need_membs (l : list (bytes * jval)) : nat :=
  match l with [] => O | kv :: r => S (need (snd kv) + need_membs r) end.

Lemma need_arr : forall xs, need (JArr xs) = S (need_elems xs).
Proof. intro xs. reflexivity. Qed.

Lemma need_obj : forall fs, need (JObj fs) = S (need_membs fs).
Proof. intro fs. reflexivity. Qed.

Lemma wr_vhead : forall o cur v out, nums_ok v = true -> wr o cur v = Some out -> vhead out = true.
Proof.
  intros o cur v out Hn H. destruct v.
  - injection H as <-. reflexivity.
  - destruct b; injection H as <-; reflexivity.
  - injection H as <-. destruct (num_ok_head _ Hn) as (c & t & -> & Hc).
    cbn [vhead]. unfold vstart. rewrite <- !orb_assoc, Hc, !orb_true_r. reflexivity.
  - cbn [wr] in H. rewrite escape_is_ref in H. injection H as <-. reflexivity.
  - rewrite wr_arr in H. destruct (wr_items _ _ _ _); [injection H as <-; reflexivity | discriminate].
  - rewrite wr_obj in H. destruct (wr_fields _ _ _ _); [injection H as <-; reflexivity | discriminate].
  - discriminate.
Qed.

(** the writer's text, followed by anything that cannot continue a number, reads back as [v] *)
Definition RB (o : opts) (v : jval) : Prop :=
  forall cur out rest f,
    all_ws cur = true -> nums_ok v = true -> wr o cur v = Some out ->
    (need v <= f)%nat -> delim rest ->
    read_value f (out ++ rest) = Some (v, rest).

Lemma read_elems_wr : forall o cur', opts_ok o = true -> all_ws cur' = true ->
  forall xs x bx br close rest f,
    RB o x -> Forall (RB o) xs ->
    nums_ok x = true -> forallb nums_ok xs = true ->
    wr o cur' x = Some bx -> wr_items o cur' false xs = Some br ->
    all_ws close = true ->
    (need_elems (x :: xs) <= f)%nat ->
    read_elems f (bx ++ br ++ close ++ 93 :: rest) = Some (x :: xs, rest).
Proof.
  intros o cur' Ho Hcur. induction xs as [|x2 xs IH];
    intros x bx br close rest f HRx HRxs Hnx Hnxs Hwx Hwi Hcl Hf;
    cbn [need_elems] in Hf; (destruct f as [|f]; [lia|]).
  - injection Hwi as <-. cbn [app].
    rewrite read_elems_eq, (HRx cur' bx (close ++ 93 :: rest) f Hcur Hnx Hwx)
      by (lia || (apply delim_ws_then; [assumption | reflexivity])).
    apply read_tail_last; [exact Hcl | reflexivity | reflexivity].
  - apply wr_items_cons in Hwi as (bx2 & br2 & Hw2 & Hwi2 & ->).
    cbn [forallb] in Hnxs. apply andb_prop in Hnxs as [Hn2 Hnxs]. inversion HRxs as [|? ? HR2 HRxs']; subst.
    rewrite <- !app_assoc.
    rewrite read_elems_eq, (HRx cur' bx _ f Hcur Hnx Hwx) by (lia || reflexivity).
    rewrite (read_tail_more _ 93 _ x [] (sep_before o cur' false) (bx2 ++ br2 ++ close ++ 93 :: rest)).
    + rewrite (IH x2 bx2 br2 close rest f HR2 HRxs' Hn2 Hnxs Hw2 Hwi2 Hcl) by (cbn [need_elems]; lia). reflexivity.
    + reflexivity.
    + apply sep_ws; assumption.
    + apply vhead_app, (wr_vhead o cur' x2); assumption.
Qed.

Lemma read_members_wr : forall o cur', opts_ok o = true -> all_ws cur' = true ->
  forall fs k x bx br close rest f,
    RB o x -> Forall (fun kv => RB o (snd kv)) fs ->
    nums_ok x = true -> forallb (fun kv => nums_ok (snd kv)) fs = true ->
    wr o cur' x = Some bx -> wr_fields o cur' false fs = Some br ->
    all_ws close = true ->
    (need_membs ((k, x) :: fs) <= f)%nat ->
    read_members f (escape_ref k ++ o_kvsep o ++ bx ++ br ++ close ++ 125 :: rest) = Some ((k, x) :: fs, rest).
Proof.
  intros o cur' Ho Hcur. destruct (opts_ok_parts o Ho) as (_ & _ & Hkv).
  induction fs as [|[k2 x2] fs IH];
    intros k x bx br close rest f HRx HRfs Hnx Hnfs Hwx Hwf Hcl Hf;
    cbn [need_membs snd] in Hf; (destruct f as [|f]; [lia|]);
    pose proof (wr_vhead o cur' x bx Hnx Hwx) as Hbx.
  - injection Hwf as <-. cbn [app].
    rewrite (read_members_key f k _ _ Hkv (vhead_app bx _ Hbx)), (HRx cur' bx (close ++ 125 :: rest) f Hcur Hnx Hwx)
      by (lia || (apply delim_ws_then; [assumption | reflexivity])).
    apply read_tail_last; [exact Hcl | reflexivity | reflexivity].
  - apply wr_fields_cons in Hwf as (bx2 & br2 & Hw2 & Hwf2 & ->).
    cbn [forallb] in Hnfs. apply andb_prop in Hnfs as [Hn2 Hnfs]. inversion HRfs as [|? ? HR2 HRfs']; subst.
    rewrite <- !app_assoc.
    rewrite (read_members_key f k _ _ Hkv (vhead_app bx _ Hbx)), (HRx cur' bx _ f Hcur Hnx Hwx) by (lia || reflexivity).
    rewrite (read_tail_more _ 125 _ (k, x) [] (sep_before o cur' false)
               (escape_ref k2 ++ o_kvsep o ++ bx2 ++ br2 ++ close ++ 125 :: rest)).
    + rewrite (IH k2 x2 bx2 br2 close rest f HR2 HRfs' Hn2 Hnfs Hw2 Hwf2 Hcl) by (cbn [need_membs snd]; lia). reflexivity.
    + reflexivity.
    + apply sep_ws; assumption.
    + reflexivity.
Qed.

Lemma RB_arr : forall o xs, opts_ok o = true -> Forall (RB o) xs -> RB o (JArr xs).
Proof.
  intros o xs Ho H cur out rest f Hcur Hn Hw Hf Hd. destruct (opts_ok_parts o Ho) as (Hpad & _).
  assert (Hcur' : all_ws (cur ++ o_padding o) = true) by (rewrite all_ws_app, Hcur, Hpad; reflexivity).
  rewrite wr_arr in Hw. rewrite need_arr in Hf. destruct f as [|f]; [lia|].
  destruct (wr_items o (cur ++ o_padding o) true xs) as [body|] eqn:Hb; [|discriminate].
  injection Hw as <-. destruct xs as [|x xs].
  - injection Hb as <-. cbn [app]. rewrite <- app_assoc, read_value_arr.
    apply read_open_nil; [apply closing_ws; assumption | reflexivity].
  - apply wr_items_cons in Hb as (bx & br & Hwx & Hwi & ->).
    cbn [nums_ok forallb] in Hn. apply andb_prop in Hn as [Hnx Hnxs]. inversion H as [|? ? HRx HRxs]; subst.
    cbn [comma is_nil app]. rewrite <- !app_assoc. cbn [app].
    rewrite read_value_arr, read_open_cons;
      [| apply sep_ws; assumption | apply vhead_app; exact (wr_vhead o _ x bx Hnx Hwx) | reflexivity].
    rewrite (read_elems_wr o _ Ho Hcur' xs x bx br (closing o cur false) rest f HRx HRxs Hnx Hnxs Hwx Hwi)
      by (apply closing_ws || apply le_S_n; assumption).
    reflexivity.
Qed.

Lemma RB_obj : forall o fs, opts_ok o = true -> Forall (fun kv => RB o (snd kv)) fs -> RB o (JObj fs).
Proof.
  intros o fs Ho H cur out rest f Hcur Hn Hw Hf Hd. destruct (opts_ok_parts o Ho) as (Hpad & _).
  assert (Hcur' : all_ws (cur ++ o_padding o) = true) by (rewrite all_ws_app, Hcur, Hpad; reflexivity).
  rewrite wr_obj in Hw. rewrite need_obj in Hf. destruct f as [|f]; [lia|].
  destruct (wr_fields o (cur ++ o_padding o) true fs) as [body|] eqn:Hb; [|discriminate].
  injection Hw as <-. destruct fs as [|[k x] fs].
  - injection Hb as <-. cbn [app]. rewrite <- app_assoc, read_value_obj.
    apply read_open_nil; [apply closing_ws; assumption | reflexivity].
  - apply wr_fields_cons in Hb as (bx & br & Hwx & Hwf & ->).
    cbn [nums_ok forallb] in Hn. apply andb_prop in Hn as [Hnx Hnfs]. inversion H as [|? ? HRx HRfs]; subst.
    cbn [comma is_nil app]. rewrite <- !app_assoc. cbn [app].
    rewrite read_value_obj, read_open_cons; [| apply sep_ws; assumption | reflexivity | reflexivity].
    rewrite (read_members_wr o _ Ho Hcur' fs k x bx br (closing o cur false) rest f HRx HRfs Hnx Hnfs Hwx Hwf)
      by (apply closing_ws || apply le_S_n; assumption).
    reflexivity.
Qed.

Lemma read_wr : forall o, opts_ok o = true -> forall v, RB o v.
Proof.
  intros o Ho. induction v using jval_ind2; [| | | | apply RB_arr; assumption | apply RB_obj; assumption |];
    intros cur out rest f Hcur Hn Hw Hf Hd; (destruct f as [|f]; [cbn [need] in Hf; lia|]).
  - injection Hw as <-. reflexivity.
  - destruct b; injection Hw as <-; reflexivity.
  - injection Hw as <-. apply read_value_num; assumption.
  - cbn [wr] in Hw. rewrite escape_is_ref in Hw. injection Hw as <-. apply read_value_str.
  - discriminate.
Qed.

(** [json_read]'s fuel is [3 * length bs + 3]; factor 3 and the slack of 2 spare [lia] a case on [first] *)
Definition LenNeed (o : opts) (v : jval) : Prop :=
  forall cur out, nums_ok v = true -> wr o cur v = Some out -> (need v + 2 <= 3 * length out)%nat.

Lemma items_need : forall o cur' xs, Forall (LenNeed o) xs ->
  forall first body, forallb nums_ok xs = true -> wr_items o cur' first xs = Some body ->
  (need_elems xs <= 3 * length body)%nat.
Proof.
  intros o cur'. induction xs as [|x xs IH]; intros HF first body Hn Hw.
  - cbn [need_elems]. lia.
  - apply wr_items_cons in Hw as (bx & br & E1 & E2 & ->). inversion HF as [|? ? Hx Hxs]; subst.
    cbn [forallb] in Hn. apply andb_prop in Hn as [Hnx Hnxs].
    pose proof (Hx cur' bx Hnx E1). pose proof (IH Hxs false br Hnxs E2).
    cbn [need_elems]. rewrite !app_length. lia.
Qed.

Lemma fields_need : forall o cur' fs, Forall (fun kv => LenNeed o (snd kv)) fs ->
  forall first body, forallb (fun kv => nums_ok (snd kv)) fs = true -> wr_fields o cur' first fs = Some body ->
  (need_membs fs <= 3 * length body)%nat.
Proof.
  intros o cur'. induction fs as [|[k x] fs IH]; intros HF first body Hn Hw.
  - cbn [need_membs]. lia.
  - apply wr_fields_cons in Hw as (bx & br & E1 & E2 & ->). inversion HF as [|? ? Hx Hxs]; subst.
    cbn [forallb snd] in Hn, Hx. apply andb_prop in Hn as [Hnx Hnxs].
    pose proof (Hx cur' bx Hnx E1). pose proof (IH Hxs false br Hnxs E2).
    cbn [need_membs snd]. rewrite !app_length. lia.
Qed.

Lemma wr_len_need : forall o v, LenNeed o v.
Proof.
  intro o. induction v using jval_ind2; intros cur out Hn Hw.
  - injection Hw as <-. cbn. lia.
  - destruct b; injection Hw as <-; cbn; lia.
  - injection Hw as <-. destruct (num_ok_head _ Hn) as (c & t' & -> & _). cbn [need length]. lia.
  - cbn [wr] in Hw. rewrite escape_is_ref in Hw. injection Hw as <-. cbn [need escape_ref length]. lia.
  - rewrite wr_arr in Hw. destruct (wr_items o (cur ++ o_padding o) true xs) as [body|] eqn:E; [|discriminate].
    injection Hw as <-. pose proof (items_need o _ xs H true body Hn E).
    rewrite need_arr. cbn [length]. rewrite !app_length. lia.
  - rewrite wr_obj in Hw. destruct (wr_fields o (cur ++ o_padding o) true fs) as [body|] eqn:E; [|discriminate].
    injection Hw as <-. pose proof (fields_need o _ fs H true body Hn E).
    rewrite need_obj. cbn [length]. rewrite !app_length. lia.
  - discriminate.
Qed.

Lemma read_back : forall o v out,
  opts_ok o = true -> nums_ok v = true -> manifest o v = Some out -> json_read out = Some v.
Proof.
  intros o v out Ho Hn Hw. unfold json_read.
  assert (Hs : skip_ws out = out) by exact (skip_ws_vhead [] out eq_refl (wr_vhead o [] v out Hn Hw)).
  assert (Hr : read_value (3 * length out + 3) (out ++ []) = Some (v, [])).
  { pose proof (wr_len_need o v [] out Hn Hw).
    apply (read_wr o Ho v []); [reflexivity | assumption | assumption | lia | exact I]. }
  rewrite app_nil_r in Hr. rewrite Hs, Hr. reflexivity.
Qed.

Definition FunIff (o : opts) (v : jval) : Prop := forall cur, wr o cur v = None <-> has_fun v = true.

Lemma items_fun : forall o cur' xs, Forall (FunIff o) xs ->
  forall first, wr_items o cur' first xs = None <-> existsb has_fun xs = true.
Proof.
  intros o cur'. induction xs as [|x xs IH]; intros HF first; cbn [wr_items existsb].
  - split; discriminate.
  - inversion HF as [|? ? Hx Hxs]; subst.
    rewrite orb_true_iff, <- (Hx cur'), <- (IH Hxs false).
    destruct (wr o cur' x), (wr_items o cur' false xs); intuition discriminate.
Qed.

Lemma fields_fun : forall o cur' fs, Forall (fun kv => FunIff o (snd kv)) fs ->
  forall first, wr_fields o cur' first fs = None <-> existsb (fun kv => has_fun (snd kv)) fs = true.
Proof.
  intros o cur'. induction fs as [|[k x] fs IH]; intros HF first; cbn [wr_fields existsb snd].
  - split; discriminate.
  - inversion HF as [|? ? Hx Hxs]; subst. cbn [snd] in Hx.
    rewrite escape_is_ref, orb_true_iff, <- (Hx cur'), <- (IH Hxs false).
    destruct (wr o cur' x), (wr_fields o cur' false fs); intuition discriminate.
Qed.

Lemma wr_fun : forall o v, FunIff o v.
Proof.
  intro o. induction v using jval_ind2; intro cur.
  - split; discriminate.
  - destruct b; split; discriminate.
  - split; discriminate.
  - cbn [wr has_fun]. rewrite escape_is_ref. split; discriminate.
  - rewrite wr_arr. cbn [has_fun]. rewrite <- (items_fun o (cur ++ o_padding o) xs H true).
    destruct (wr_items o (cur ++ o_padding o) true xs); split; try discriminate; reflexivity.
  - rewrite wr_obj. cbn [has_fun]. rewrite <- (fields_fun o (cur ++ o_padding o) fs H true).
    destruct (wr_fields o (cur ++ o_padding o) true fs); split; try discriminate; reflexivity.
  - split; reflexivity.
Qed.

Lemma all_ws_rep : forall n u, all_ws u = true -> all_ws (rep_bytes n u) = true.
Proof. induction n; intros u H; [reflexivity|]. cbn [rep_bytes]. rewrite all_ws_app, H, (IHn u H). reflexivity. Qed.

Lemma fmt_cli_ok : forall n, opts_ok (fmt_cli n) = true.
Proof.
  destruct n as [|n]; [reflexivity|].
  unfold fmt_cli, opts_ok. cbn [preset_cli o_padding o_newline o_kvsep].
  rewrite (all_ws_rep (S n) preset_cli_unit) by reflexivity. reflexivity.
Qed.

Lemma fmt_std_ok : forall i n k, all_ws i = true -> all_ws n = true -> kvsep_ok k = true ->
  opts_ok (fmt_std i n k) = true.
Proof. intros i n k Hi Hn Hk. unfold fmt_std, opts_ok. cbn [o_padding o_newline o_kvsep]. rewrite Hi, Hn, Hk. reflexivity. Qed.

Lemma fixed_formats_ok :
  forallb opts_ok [fmt_default; fmt_minify; fmt_to_string; fmt_std_default] = true.
Proof. reflexivity. Qed.

Lemma p_escape_impl_is_map : forall bs buf,
  escape_buf bs buf = Some (buf ++ 34 :: flat_map esc1 bs ++ [34]).
Proof. exact escape_buf_is_ref. Qed.

Lemma p_writer_total : forall o cur v, has_fun v = false -> exists out, wr o cur v = Some out.
Proof.
  intros o cur v H. destruct (wr o cur v) as [out|] eqn:E; [eauto|].
  apply wr_fun in E. congruence.
Qed.

Definition ex_ok (e : bytes * bytes * bytes) : bool :=
  let '(i, n, k) := e in all_ws i && all_ws n && kvsep_ok k.

