(** C05 — the property theorems; helper lemmas are in Proofs.v, the statements again in Pins.v. *)
From Coq Require Import List NArith Bool.
From JrV Require Import Gen.GenEscape C05.Model C05.Proofs.
Import ListNotations.
Open Scope N_scope.

(** Every entry of the regenerated ESCAPE table: an unescaped byte is a legal raw JSON string
    character; an escaped byte is ASCII, its match arm exists (no `unreachable!()`), and what is
    emitted is a printable-ASCII RFC 8259 spelling of that byte. *)
Theorem C05_escape_table_ok :
  Nat.eqb (length escape_table) 256 && forallb entry_ok (map N.of_nat (seq 0 256)) = true.
Proof. exact p_table. Qed.
Print Assumptions C05_escape_table_ok.

(** The index-and-flush loop of escape_string_json_buf is a plain per-byte map, for every byte
    list and every buffer content: never panics, appends quote ++ map ++ quote. *)
Theorem C05_escape_impl_is_map :
  forall bs buf, escape_buf bs buf = Some (buf ++ 34 :: flat_map esc1 bs ++ [34]).
Proof. exact p_escape_impl_is_map. Qed.
Print Assumptions C05_escape_impl_is_map.

(** For EVERY byte list (not only valid UTF-8): the RFC 8259 string reader gives the input
    back, the output is quote-delimited and contains no control byte. *)
Theorem C05_escape_roundtrip :
  forall bs, exists out, escape bs = Some out /\ json_unescape out = Some bs /\
                         Forall (fun c => 32 <= c) out /\ hd 0 out = 34 /\ last out 0 = 34.
Proof.
  intro bs. exists (escape_ref bs). split; [apply escape_is_ref|].
  split; [apply unescape_escape_ref|]. split; [apply escape_ref_no_control|].
  split; [reflexivity|]. apply (last_last (34 :: flat_map esc1 bs)).
Qed.
Print Assumptions C05_escape_roundtrip.

(** The obligation of the `unsafe` byte view: bytes >= 0x80 pass through unchanged and in
    order, and well-formed UTF-8 in gives well-formed UTF-8 out. *)
Theorem C05_escape_preserves_utf8 :
  forall bs out, escape bs = Some out ->
    filter (fun c => 128 <=? c) out = filter (fun c => 128 <=? c) bs /\ (utf8 bs -> utf8 out).
Proof.
  intros bs out H. rewrite escape_is_ref in H. injection H as <-. split.
  - apply escape_ref_high.
  - apply escape_ref_utf8.
Qed.
Print Assumptions C05_escape_preserves_utf8.

(** For every value, mode, whitespace padding / newline and key_val_sep of the shape ws ":" ws:
    the RFC 8259 reader reads the emitted text back as the same value. *)
Theorem C05_writer_read_back :
  forall o v out, opts_ok o = true -> nums_ok v = true -> manifest o v = Some out ->
    json_read out = Some v.
Proof. exact read_back. Qed.
Print Assumptions C05_writer_read_back.

(** JsonFormat::cli(n) for every n. *)
Theorem C05_cli_read_back :
  forall n v out, nums_ok v = true -> manifest (fmt_cli n) v = Some out -> json_read out = Some v.
Proof. intros n v out Hn Hm. exact (read_back _ v out (fmt_cli_ok n) Hn Hm). Qed.
Print Assumptions C05_cli_read_back.

(** All producing paths with the presets read from the source (default, minify, cli 0..4,
    ToStringFormat, Val::to_string, std.manifestJson[Ex]) denote the same value. *)
Theorem C05_all_paths_read_back :
  forall v ex, nums_ok v = true -> (forall s, v <> JStr s) -> forallb ex_ok ex = true ->
    forall out, In (Some out) (all_paths v ex) -> json_read out = Some v.
Proof.
  intros v ex Hn Hs Hex out Hin.
  assert (R : forall o, opts_ok o = true -> manifest o v = Some out -> json_read out = Some v)
    by (intros o Ho Hm; exact (read_back o v out Ho Hn Hm)).
  pose proof fixed_formats_ok as F. cbn [forallb] in F. b2p.
  assert (T : to_string_format v = Some out -> json_read out = Some v).
  { destruct v; try (apply R; assumption). destruct (Hs s eq_refl). }
  assert (S : val_to_string v = Some out -> json_read out = Some v).
  { destruct v; exact T. }
  unfold all_paths in Hin. apply in_app_or in Hin. destruct Hin as [Hin|Hin].
  - cbn [In] in Hin.
    repeat (destruct Hin as [E|Hin]; [eauto using fmt_cli_ok|]).
    contradiction.
  - apply in_map_iff in Hin. destruct Hin as ([[i n] k] & E & Hi).
    apply (proj1 (forallb_forall _ _) Hex) in Hi. unfold ex_ok in Hi. b2p.
    apply (R (fmt_std i n k)); [apply fmt_std_ok; assumption | assumption].
Qed.
Print Assumptions C05_all_paths_read_back.

(** std.toString / ToStringFormat print a top-level string as is. *)
Theorem C05_to_string_raw :
  forall s, val_to_string (JStr s) = Some s /\ to_string_format (JStr s) = Some s.
Proof. intro s. split; reflexivity. Qed.
Print Assumptions C05_to_string_raw.

(** A value containing a function is rejected by every path; anything else is written. *)
Theorem C05_function_rejected :
  forall v ex, has_fun v = true -> forall r, In r (all_paths v ex) -> r = None.
Proof.
  intros v ex Hf r Hin.
  assert (W : forall o, manifest o v = None) by (intro o; apply wr_fun; exact Hf).
  assert (T : to_string_format v = None) by (destruct v; try discriminate; apply W).
  assert (S : val_to_string v = None) by (destruct v; try discriminate; apply T).
  unfold all_paths in Hin. apply in_app_or in Hin. destruct Hin as [Hin|Hin].
  - cbn [In] in Hin.
    repeat (destruct Hin as [Hin|Hin]; [subst r; first [apply W | exact T | exact S]|]). contradiction.
  - apply in_map_iff in Hin. destruct Hin as ([[i n] k] & E & _). subst r. apply W.
Qed.
Print Assumptions C05_function_rejected.

Theorem C05_writer_total :
  forall o cur v, has_fun v = false -> exists out, wr o cur v = Some out.
Proof. exact p_writer_total. Qed.
Print Assumptions C05_writer_total.

(** The object text lists exactly the names ObjValue::iter yields, in that order. *)
Theorem C05_keys_preserved :
  forall o fs out, opts_ok o = true -> nums_ok (JObj fs) = true -> manifest o (JObj fs) = Some out ->
    exists v', json_read out = Some v' /\ keys_of v' = map fst fs /\
               (ascending (map fst fs) = true -> ascending (keys_of v') = true).
Proof.
  intros o fs out Ho Hn Hm. exists (JObj fs). split; [exact (read_back o _ out Ho Hn Hm)|].
  split; [reflexivity|]. intro H. exact H.
Qed.
Print Assumptions C05_keys_preserved.
