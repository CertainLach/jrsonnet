(** C05 source tie — the property theorems.  [gen_*] are the definitions of Gen/GenJson.v, which
    translator/gens/jsonwriter.py regenerates from crates/jrsonnet-evaluator/src/manifest.rs on every run. *)
From Coq Require Import List NArith Bool.
From JrV Require Import Gen.GenEscape Gen.GenJson C05.Model C05.Proofs C05.ModelSource C05.ProofsSource.
Import ListNotations.
Open Scope N_scope.

(** For all values, format records, buffer contents and initial paddings: the translated
    manifest_json_ex_buf leaves behind buffer ++ the text of the hand model [wr] and the initial
    cur_padding (the truncate restores it), and fails exactly when [wr] does. *)
Theorem C05_model_is_translated_source_writer :
  forall o v buf cur, gen_manifest_json_ex_buf o v buf cur = src_result buf cur (wr o cur v).
Proof. exact tie_all. Qed.
Print Assumptions C05_model_is_translated_source_writer.

(** manifest_json_ex (fresh buffer, fresh padding) is the model's [manifest]. *)
Theorem C05_model_is_translated_source_entry :
  forall o v, gen_manifest_json_ex o v = manifest o v.
Proof.
  intros o v. unfold gen_manifest_json_ex, manifest. rewrite tie_all.
  destruct (wr o [] v); reflexivity.
Qed.
Print Assumptions C05_model_is_translated_source_entry.

(** The translated JsonFormat constructors are the model's format constants (which Model.v builds
    from the presets of Gen/GenEscape.v: two independent readings of the same source). *)
Theorem C05_model_is_translated_source_formats :
  gen_fmt_default = fmt_default /\ gen_fmt_minify = fmt_minify /\
  gen_fmt_std_to_string_helper = fmt_to_string /\
  (forall n, gen_fmt_cli n = fmt_cli n) /\
  (forall i n k, gen_fmt_std_to_json i n k = fmt_std i n k).
Proof.
  repeat apply conj; intros; try reflexivity.
  destruct n as [|n]; reflexivity.
Qed.
Print Assumptions C05_model_is_translated_source_formats.

(** The translated writer only appends to the buffer and hands cur_padding back unchanged. *)
Theorem C05_source_padding_restored :
  forall o v buf cur buf' cur', gen_manifest_json_ex_buf o v buf cur = Some (buf', cur') ->
    cur' = cur /\ exists out, buf' = buf ++ out /\ wr o cur v = Some out.
Proof.
  intros o v buf cur buf' cur' H. rewrite tie_all in H.
  destruct (wr o cur v) as [out|]; [|discriminate]. cbn [src_result] in H. inversion H; subst.
  split; [reflexivity|]. exists out. split; reflexivity.
Qed.
Print Assumptions C05_source_padding_restored.

(** C05_writer_read_back for the translated code. *)
Theorem C05_source_writer_read_back :
  forall o v out, opts_ok o = true -> nums_ok v = true -> gen_manifest_json_ex o v = Some out ->
    json_read out = Some v.
Proof. intros o v out Ho Hn H. rewrite C05_model_is_translated_source_entry in H. exact (read_back o v out Ho Hn H). Qed.
Print Assumptions C05_source_writer_read_back.

(** ... in particular with every translated constructor. *)
Theorem C05_source_constructors_read_back :
  forall v, nums_ok v = true ->
  (forall out, gen_manifest_json_ex gen_fmt_default v = Some out -> json_read out = Some v) /\
  (forall out, gen_manifest_json_ex gen_fmt_minify v = Some out -> json_read out = Some v) /\
  (forall out, gen_manifest_json_ex gen_fmt_std_to_string_helper v = Some out -> json_read out = Some v) /\
  (forall n out, gen_manifest_json_ex (gen_fmt_cli n) v = Some out -> json_read out = Some v) /\
  (forall i n k out, all_ws i = true -> all_ws n = true -> kvsep_ok k = true ->
     gen_manifest_json_ex (gen_fmt_std_to_json i n k) v = Some out -> json_read out = Some v).
Proof.
  intros v Hn. destruct C05_model_is_translated_source_formats as (_ & _ & _ & Ec & Es).
  repeat split.
  - intros out H. apply (C05_source_writer_read_back gen_fmt_default); auto.
  - intros out H. apply (C05_source_writer_read_back gen_fmt_minify); auto.
  - intros out H. apply (C05_source_writer_read_back gen_fmt_std_to_string_helper); auto.
  - intros n out H. apply (C05_source_writer_read_back (gen_fmt_cli n)); auto. rewrite Ec. apply fmt_cli_ok.
  - intros i n k out Hi Hnl Hk H. apply (C05_source_writer_read_back (gen_fmt_std_to_json i n k)); auto.
    rewrite Es. apply fmt_std_ok; assumption.
Qed.
Print Assumptions C05_source_constructors_read_back.

(** The translated writer rejects exactly the values that contain a function. *)
Theorem C05_source_function_rejected :
  forall o v, (has_fun v = true -> gen_manifest_json_ex o v = None) /\
              (has_fun v = false -> exists out, gen_manifest_json_ex o v = Some out).
Proof.
  intros o v. rewrite C05_model_is_translated_source_entry. unfold manifest.
  split; [apply wr_fun | apply p_writer_total].
Qed.
Print Assumptions C05_source_function_rejected.
