(** C05 source tie — proofs: the translated writer of Gen/GenJson.v equals the hand model. *)
From Coq Require Import List NArith Bool.
From JrV Require Import Gen.GenJson C05.Model C05.Proofs C05.ModelSource.
Import ListNotations.
Open Scope N_scope.

Lemma firstn_len_app : forall (A : Type) (a b : list A), firstn (length a) (a ++ b) = a.
Proof. induction a as [|x a IH]; intro b; [reflexivity|]. cbn [length app firstn]. rewrite IH. reflexivity. Qed.

Definition Tie (o : opts) (v : jval) : Prop :=
  forall buf cur, gen_manifest_json_ex_buf o v buf cur = src_result buf cur (wr o cur v).

(** The translated loop is used through two equations and is then a variable; on a cons, the
    `i != 0` comma and the mode's separator (eight cases) amount to [comma] and [sep_before]. *)
Lemma tie_arr : forall o xs, Forall (Tie o) xs -> Tie o (JArr xs).
Proof.
  intros o xs H buf cur. rewrite wr_arr. cbn [gen_manifest_json_ex_buf].
  match goal with
  | |- match ?F 0%nat xs _ _ false with _ => _ end = _ =>
      assert (Nil : forall i b0 c had, F i [] b0 c had = Some (b0, c, had)) by reflexivity;
      assert (Step : forall i x l b0 c had,
                 F i (x :: l) b0 c had =
                 match gen_manifest_json_ex_buf o x (b0 ++ comma (Nat.eqb i 0) ++ sep_before o c (Nat.eqb i 0)) c with
                 | Some (b', c') => F (S i) l b' c' true
                 | None => None
                 end);
      [| set (loop := F) in *; clearbody loop]
  end.
  { intros i x l b0 c had. cbv beta iota fix zeta.
    match goal with |- context [?G (S i) l] => set (K := G (S i) l); clearbody K end.
    unfold comma, sep_before.
    destruct (Nat.eqb i 0), (o_mtype o); cbn [negb app]; rewrite ?app_nil_r, <- ?app_assoc; reflexivity. }
  assert (E : forall l, Forall (Tie o) l -> forall i b0 c had,
             loop i l b0 c had =
             match wr_items o c (Nat.eqb i 0) l with
             | Some body => Some (b0 ++ body, c, had || negb (is_nil l))
             | None => None
             end).
  { induction l as [|x l IH]; intros HF i b0 c had.
    - rewrite Nil. cbn [wr_items is_nil negb]. rewrite app_nil_r, orb_false_r. reflexivity.
    - inversion HF as [|? ? Hx Hl]; subst. rewrite Step, Hx. cbn [wr_items is_nil negb]. rewrite orb_true_r.
      destruct (wr o c x) as [bx|]; [|reflexivity]. cbn [src_result].
      rewrite (IH Hl). cbn [Nat.eqb orb].
      destruct (wr_items o c false l) as [br|]; [|reflexivity].
      rewrite <- !app_assoc. reflexivity. }
  rewrite (E xs H). cbn [Nat.eqb].
  destruct (wr_items o (cur ++ o_padding o) true xs) as [body|]; [|reflexivity].
  rewrite firstn_len_app. unfold closing.
  destruct xs, (o_mtype o); cbn [is_nil negb orb src_result]; rewrite <- ?app_assoc; reflexivity.
Qed.

Lemma tie_obj : forall o fs, Forall (fun kv => Tie o (snd kv)) fs -> Tie o (JObj fs).
Proof.
  intros o fs H buf cur. rewrite wr_obj. cbn [gen_manifest_json_ex_buf].
  match goal with
  | |- match ?F 0%nat fs _ _ false with _ => _ end = _ =>
      assert (Nil : forall i b0 c had, F i [] b0 c had = Some (b0, c, had)) by reflexivity;
      assert (Step : forall i k x l b0 c had,
                 F i ((k, x) :: l) b0 c had =
                 match gen_manifest_json_ex_buf o x
                         (b0 ++ comma (Nat.eqb i 0) ++ sep_before o c (Nat.eqb i 0) ++ escape_ref k ++ o_kvsep o) c with
                 | Some (b', c') => F (S i) l b' c' true
                 | None => None
                 end);
      [| set (loop := F) in *; clearbody loop]
  end.
  { intros i k x l b0 c had. cbv beta iota fix zeta.
    match goal with |- context [?G (S i) l] => set (K := G (S i) l); clearbody K end.
    unfold comma, sep_before.
    destruct (Nat.eqb i 0), (o_mtype o); cbn [negb app];
      rewrite escape_buf_is_ref, ?app_nil_r, <- ?app_assoc; reflexivity. }
  assert (E : forall l, Forall (fun kv => Tie o (snd kv)) l -> forall i b0 c had,
             loop i l b0 c had =
             match wr_fields o c (Nat.eqb i 0) l with
             | Some body => Some (b0 ++ body, c, had || negb (is_nil l))
             | None => None
             end).
  { induction l as [|[k x] l IH]; intros HF i b0 c had.
    - rewrite Nil. cbn [wr_fields is_nil negb]. rewrite app_nil_r, orb_false_r. reflexivity.
    - inversion HF as [|? ? Hx Hl]; subst. rewrite Step, Hx.
      cbn [wr_fields is_nil negb snd]. rewrite escape_is_ref, orb_true_r.
      destruct (wr o c x) as [bx|]; [|reflexivity]. cbn [src_result].
      rewrite (IH Hl). cbn [Nat.eqb orb].
      destruct (wr_fields o c false l) as [br|]; [|reflexivity].
      rewrite <- !app_assoc. reflexivity. }
  rewrite (E fs H). cbn [Nat.eqb].
  destruct (wr_fields o (cur ++ o_padding o) true fs) as [body|]; [|reflexivity].
  rewrite firstn_len_app. unfold closing.
  destruct fs, (o_mtype o); cbn [is_nil negb orb src_result]; rewrite <- ?app_assoc; reflexivity.
Qed.

Lemma tie_all : forall o v, Tie o v.
Proof.
  intro o. induction v using jval_ind2.
  - intros buf cur. reflexivity.
  - intros buf cur. destruct b; reflexivity.
  - intros buf cur. reflexivity.
  - intros buf cur. cbn [gen_manifest_json_ex_buf wr]. unfold escape. rewrite !escape_buf_is_ref. reflexivity.
  - apply tie_arr, H.
  - apply tie_obj, H.
  - intros buf cur. reflexivity.
Qed.
