(** C09 — lemmas about single numbers, on Flocq's correctness theorems. *)
From Coq Require Import ZArith List Bool Reals Lia.
From Flocq Require Import IEEE754.BinarySingleNaN IEEE754.Binary IEEE754.Bits Core.
From JrV Require Import Gen.GenConsts Gen.GenNum C09.Model.
Open Scope Z_scope.

Notation B2R64 := (B2R 53 1024).
(** -1074 = 3 - 1024 - 53 *)
Notation rnd64 := (round radix2 (FLT_exp (-1074) 53) ZnearestE).

(** * statement vocabulary *)
Definition arith_checked (opR : R -> R -> R) (impl : f64 -> f64 -> option f64) (a b : f64) : Prop :=
  let x := rnd64 (opR (B2R64 a) (B2R64 b)) in
  if Rlt_bool (Rabs x) (bpow radix2 1024)
  then exists r, impl a b = Some r /\ finite r = true /\ B2R64 r = x
  else impl a b = None.

Definition exactly_one (p q r : bool) : Prop :=
  (p = true /\ q = false /\ r = false) \/ (p = false /\ q = true /\ r = false) \/
  (p = false /\ q = false /\ r = true).

Definition lef (a b : f64) : Prop := le_impl a b = true.

(** * comparisons *)
Lemma b64_compare_R a b : finite a = true -> finite b = true ->
  b64_compare a b = Some (Rcompare (B2R64 a) (B2R64 b)).
Proof. apply Bcompare_correct. Qed.

Lemma cmp_R a b : finite a = true -> finite b = true ->
  cmp a b = Rcompare (B2R64 a) (B2R64 b).
Proof. intros Ha Hb. unfold cmp. now rewrite b64_compare_R. Qed.

Lemma flt_R a b : finite a = true -> finite b = true ->
  flt a b = Rlt_bool (B2R64 a) (B2R64 b).
Proof.
  intros Ha Hb. unfold flt, Rlt_bool. rewrite b64_compare_R by assumption. now destruct Rcompare.
Qed.

Lemma fle_R a b : finite a = true -> finite b = true ->
  fle a b = Rle_bool (B2R64 a) (B2R64 b).
Proof.
  intros Ha Hb. unfold fle, Rle_bool. rewrite b64_compare_R by assumption. now destruct Rcompare.
Qed.

Lemma feq_R a b : finite a = true -> finite b = true ->
  feq a b = Req_bool (B2R64 a) (B2R64 b).
Proof.
  intros Ha Hb. unfold feq, Req_bool. rewrite b64_compare_R by assumption. now destruct Rcompare.
Qed.

Lemma fle_true a b : finite a = true -> finite b = true ->
  fle a b = true -> (B2R64 a <= B2R64 b)%R.
Proof.
  intros Ha Hb. rewrite fle_R by assumption. now destruct (Rle_bool_spec (B2R64 a) (B2R64 b)).
Qed.

Lemma eq_spec_iff_R a b : finite a = true -> finite b = true ->
  (eq_spec a b = true <-> B2R64 a = B2R64 b).
Proof.
  intros Ha Hb. unfold eq_spec. rewrite feq_R by assumption.
  now destruct (Req_bool_spec (B2R64 a) (B2R64 b)).
Qed.

Lemma flt_negb_fle a b : finite a = true -> finite b = true -> flt a b = negb (fle b a).
Proof.
  intros Ha Hb. rewrite flt_R, fle_R by assumption. symmetry. apply negb_Rlt_bool.
Qed.

Lemma flt_cmp a b : flt a b = true -> cmp a b = Lt.
Proof. unfold flt, cmp. destruct b64_compare as [[]|]; congruence. Qed.

(** also for NaN: [cmp] turns unordered into [Eq] *)
Lemma cmp_swap a b : cmp b a = CompOpp (cmp a b).
Proof.
  unfold cmp, b64_compare. rewrite (Bcompare_swap _ _ a b). now destruct Bcompare as [[]|].
Qed.

Lemma num_new_spec x : num_new x = if finite x then Some x else None.
Proof. reflexivity. Qed.

Lemma num_new_inv x r : num_new x = Some r -> r = x /\ finite r = true.
Proof. rewrite num_new_spec. destruct (finite x) eqn:E; [|discriminate]. now intros [= <-]. Qed.

(** * arithmetic *)
(** Flocq's theorems read [if c then A else B], [c] the no-overflow test; [B] gives an infinity *)
Lemma checked_result (c : bool) (A B : Prop) (v : R) (x : f64) :
  (if c then A else B) ->
  (A -> B2R64 x = v /\ finite x = true) ->
  (B -> exists s, B2FF 53 1024 x = binary_overflow 53 1024 mode_NE s) ->
  if c then exists r, num_new x = Some r /\ finite r = true /\ B2R64 r = v else num_new x = None.
Proof.
  intros H HA HB. rewrite num_new_spec. destruct c.
  - destruct (HA H) as [E F]. exists x. rewrite F. auto.
  - destruct (HB H) as [s E]. rewrite <- is_finite_B2FF, E. reflexivity.
Qed.

Lemma add_checked a b : finite a = true -> finite b = true -> arith_checked Rplus add_impl a b.
Proof.
  intros Ha Hb. eapply checked_result.
  - exact (Bplus_correct 53 1024 Hprec53 Hmax1024 binop_nan_pl64 mode_NE a b Ha Hb).
  - tauto.
  - intros [E _]. eexists. exact E.
Qed.

Lemma sub_checked a b : finite a = true -> finite b = true -> arith_checked Rminus sub_impl a b.
Proof.
  intros Ha Hb. eapply checked_result.
  - exact (Bminus_correct 53 1024 Hprec53 Hmax1024 binop_nan_pl64 mode_NE a b Ha Hb).
  - tauto.
  - intros [E _]. eexists. exact E.
Qed.

Lemma mul_checked a b : finite a = true -> finite b = true -> arith_checked Rmult mul_impl a b.
Proof.
  intros Ha Hb. eapply checked_result.
  - exact (Bmult_correct 53 1024 Hprec53 Hmax1024 binop_nan_pl64 mode_NE a b).
  - rewrite Ha, Hb. tauto.
  - intros E. eexists. exact E.
Qed.

Lemma feq_zero_R b : finite b = true -> feq b f_zero = Req_bool (B2R64 b) 0.
Proof. intros Hb. now rewrite feq_R. Qed.

Lemma div_checked a b : finite a = true -> finite b = true ->
  if Req_bool (B2R64 b) 0 then div_impl a b = None else arith_checked Rdiv div_impl a b.
Proof.
  intros Ha Hb. unfold arith_checked, div_impl. rewrite feq_zero_R by assumption.
  destruct (Req_bool_spec (B2R64 b) 0) as [Z|NZ]; [reflexivity|].
  eapply checked_result.
  - exact (Bdiv_correct 53 1024 Hprec53 Hmax1024 binop_nan_pl64 mode_NE a b NZ).
  - rewrite Ha. tauto.
  - intros E. eexists. exact E.
Qed.

(** * order and equality *)
Lemma trichotomy a b : finite a = true -> finite b = true ->
  exactly_one (lt_impl a b) (eq_spec a b) (gt_impl a b) /\
  le_impl a b = (lt_impl a b || eq_spec a b) /\
  ge_impl a b = (gt_impl a b || eq_spec a b) /\
  gt_impl a b = lt_impl b a /\
  eq_spec a b = eq_spec b a.
Proof.
  intros Ha Hb.
  unfold lt_impl, gt_impl, le_impl, ge_impl, is_le, is_ge, eq_spec, feq, cmp, exactly_one.
  rewrite (b64_compare_R a b), (b64_compare_R b a), (Rcompare_sym (B2R64 b)) by assumption.
  destruct (Rcompare (B2R64 a) (B2R64 b)); cbn; tauto.
Qed.

(** computes the flag Gen/GenNum.v reads from val.rs ([false] since ce0d2fe) *)
Lemma eq_impl_is_spec : eq_impl = eq_spec.
Proof. reflexivity. Qed.

Lemma eq_impl_iff_R a b : finite a = true -> finite b = true ->
  (eq_impl a b = true <-> B2R64 a = B2R64 b).
Proof. rewrite eq_impl_is_spec. apply eq_spec_iff_R. Qed.

(** under [eq_eps]: 1e-20, 2e-20 equal yet ordered; 0, EPSILON, 2 EPSILON not transitive *)
Definition w_1e20 : f64 := b64_of_bits 4307583784117748259.   (* 1e-20 *)
Definition w_2e20 : f64 := b64_of_bits 4312087383745118755.   (* 2e-20 *)

Lemma eq_eps_refuted :
  exists a b, finite a = true /\ finite b = true /\ eq_eps a b = true /\ lt_impl a b = true /\ eq_spec a b = false.
Proof. exists w_1e20, w_2e20. vm_compute. repeat split. Qed.

Lemma eq_eps_not_transitive :
  exists a b c, finite a = true /\ finite b = true /\ finite c = true /\
    eq_eps a b = true /\ eq_eps b c = true /\ eq_eps a c = false.
Proof.
  exists f_zero, f_epsilon, (b64_of_bits 4377498837804122112 (* 2^-51 *)). vm_compute. repeat split.
Qed.

Lemma eq_outside_known a b : finite a = true -> finite b = true ->
  known_eps a b = false -> eq_impl a b = eq_spec a b.
Proof. intros _ _ _. now rewrite eq_impl_is_spec. Qed.

(** * bitwise operators *)
Lemma trunc_Z_correct a : trunc_Z a = Ztrunc (B2R64 a).
Proof.
  apply eq_IZR. unfold trunc_Z. rewrite Btrunc_correct by exact Hmax1024. apply round_FIX_IZR.
Qed.

Lemma trunc_Z_mono a b : finite a = true -> finite b = true ->
  fle a b = true -> trunc_Z a <= trunc_Z b.
Proof. intros Ha Hb L. rewrite !trunc_Z_correct. now apply Ztrunc_le, fle_true. Qed.

Lemma B2R_zero : B2R64 f_zero = 0%R /\ finite f_zero = true.
Proof. split; reflexivity. Qed.

Lemma bounds_eval :
  finite f_min_safe = true /\ finite f_max_safe = true /\
  trunc_Z f_min_safe = min_safe_integer /\ trunc_Z f_max_safe = max_safe_integer.
Proof. vm_compute. repeat split. Qed.

(** [unfold safe in H] / [fold (safe a)] make the kernel decode both bounds again *)
Lemma safe_andb a : safe a = fle f_min_safe a && fle a f_max_safe.
Proof. reflexivity. Qed.

Lemma safe_bounds a : finite a = true -> safe a = true ->
  -9007199254740991 <= trunc_Z a <= 9007199254740991.
Proof.
  intros Ha S. rewrite safe_andb in S. apply andb_prop in S as [S1 S2].
  destruct bounds_eval as (Fmin & Fmax & Tmin & Tmax).
  change (min_safe_integer <= trunc_Z a <= max_safe_integer). rewrite <- Tmin, <- Tmax.
  split; [exact (trunc_Z_mono _ _ Fmin Ha S1)|exact (trunc_Z_mono _ _ Ha Fmax S2)].
Qed.

Lemma safe_i64 a : finite a = true -> safe a = true -> i64_min <= trunc_Z a <= i64_max.
Proof. intros Ha S. pose proof (safe_bounds a Ha S). unfold i64_min, i64_max. lia. Qed.

Lemma cast_i64_safe a : finite a = true -> safe a = true -> cast_i64 a = trunc_Z a.
Proof. intros Ha S. pose proof (safe_i64 a Ha S). unfold cast_i64. lia. Qed.

Lemma tfb_safe a : finite a = true -> tfb a = if safe a then Some (trunc_Z a) else None.
Proof.
  intros Ha. unfold tfb. destruct bounds_eval as (Fmin & Fmax & _).
  rewrite (flt_negb_fle _ _ Ha Fmin), (flt_negb_fle _ _ Fmax Ha).
  rewrite <- negb_andb, <- safe_andb.
  destruct (safe a) eqn:S; [|reflexivity]. cbn [negb]. now rewrite cast_i64_safe.
Qed.

Lemma nonneg_trunc b : finite b = true -> flt b f_zero = false -> 0 <= trunc_Z b.
Proof.
  intros Hb N. rewrite (flt_negb_fle b f_zero Hb eq_refl) in N. apply negb_false_iff in N.
  exact (trunc_Z_mono f_zero b eq_refl Hb N).
Qed.

Lemma land_63 c : Z.land c 63 = c mod 64.
Proof. change 63 with (Z.ones 6). now apply Z.land_ones. Qed.

Lemma wrap64_id z : i64_min <= z <= i64_max -> wrap64 z = z.
Proof.
  unfold wrap64, i64_min, i64_max. intros. rewrite Z.mod_small by lia. apply Z.add_simpl_r.
Qed.

(** the guard of `<<` fires iff the product exceeds [i64_max] *)
Lemma shl_guard x e : 0 <= e < 64 -> x <= i64_max ->
  (1 <=? e) && (2 ^ (63 - e) <=? x) = (i64_max <? x * 2 ^ e).
Proof.
  intros He Hx. unfold i64_max in *. destruct (Z.leb_spec 1 e) as [E1|E0]; cbn [andb].
  - assert (P : 2 ^ 63 = 2 ^ (63 - e) * 2 ^ e) by (rewrite <- Z.pow_add_r by lia; f_equal; lia).
    apply eq_true_iff_eq. rewrite Z.leb_le, Z.ltb_lt.
    rewrite (Z.mul_le_mono_pos_r _ _ (2 ^ e)) by (apply Z.pow_pos_nonneg; lia).
    rewrite <- P. lia.
  - replace e with 0 by lia. rewrite Z.mul_1_r. symmetry. now apply Z.ltb_ge.
Qed.

(** in the known class the product wraps *)
Lemma shl_cases a b : finite a = true -> finite b = true ->
  shl_impl a b = if known_shl_neg a b
                 then num_new (of_Z (wrap64 (trunc_Z a * 2 ^ (trunc_Z b mod 64))))
                 else shl_spec a b.
Proof.
  intros Ha Hb. unfold shl_impl, shl_spec, known_shl_neg. rewrite !tfb_safe by assumption.
  destruct (flt b f_zero) eqn:N; cbn [negb].
  { now rewrite !andb_false_r. }
  rewrite !andb_true_r.
  destruct (safe a) eqn:Sa; [|reflexivity].
  destruct (safe b) eqn:Sb; [|reflexivity].
  cbn [andb]. unfold shl_count_modulus, shl_guard_min_exp, shl_guard_bits.
  rewrite Z.rem_mod_nonneg by (apply (nonneg_trunc b Hb N) || lia).
  rewrite land_63, Z.mod_mod by lia.
  rewrite shl_guard by (apply Z.mod_pos_bound || apply (safe_i64 a Ha Sa); lia).
  set (r := trunc_Z a * 2 ^ (trunc_Z b mod 64)). rewrite !Z.ltb_antisym.
  destruct (Z.leb_spec i64_min r) as [L|L]; cbn [negb andb].
  - destruct (Z.leb_spec r i64_max); cbn [negb]; [|reflexivity].
    rewrite wrap64_id by (split; assumption). reflexivity.
  - rewrite (proj2 (Z.leb_le r i64_max)) by (unfold i64_min, i64_max in *; lia). cbn [negb]. reflexivity.
Qed.

Lemma bsearch_sound x l : forall fuel low high,
  bsearch fuel x l low high = Some true -> exists y, In y l /\ cmp y x = Eq.
Proof.
  induction fuel as [|f IH]; intros low high H; cbn [bsearch] in H; [discriminate|].
  destruct (low <? high)%nat; [|discriminate].
  destruct (nth_error l ((high + low) / 2)) as [c|] eqn:E; [|discriminate].
  destruct (cmp c x) eqn:C.
  - exists c. split; [eapply nth_error_In; eassumption|assumption].
  - eapply IH; eassumption.
  - eapply IH; eassumption.
Qed.
