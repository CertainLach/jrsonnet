(** C09 — std.sort / uniq / set / setMember, for [eq_spec]; the code's `==` enters in [set_is_spec]. *)
From Coq Require Import List Bool Reals Lia Lra Permutation Sorted Arith.
From Flocq Require Import IEEE754.Binary Core.
From JrV Require Import C09.Model C09.Proofs.

Notation fin_list := (Forall (fun y : f64 => finite y = true)).
Notation key := (B2R 53 1024).
Definition ltk (a b : f64) : Prop := (key a < key b)%R.
Definition lek (a b : f64) : Prop := (key a <= key b)%R.

(** * std.sort *)
Lemma insert_perm x l : Permutation (insert x l) (x :: l).
Proof.
  induction l as [|y t IH]; cbn; [reflexivity|].
  destruct (is_gt (cmp x y)); [|reflexivity].
  rewrite IH. apply perm_swap.
Qed.

Lemma sort_perm l : Permutation (sort_impl l) l.
Proof.
  induction l as [|x t IH]; cbn; [constructor|].
  fold (sort_impl t). rewrite insert_perm. now constructor.
Qed.

Lemma sort_in x l : In x (sort_impl l) <-> In x l.
Proof. split; apply Permutation_in; [|symmetry]; apply sort_perm. Qed.

Lemma not_gt_le x y : is_gt (cmp x y) = false -> lef x y.
Proof. unfold lef, le_impl, is_le. now intros ->. Qed.

Lemma gt_le_swap x y : is_gt (cmp x y) = true -> lef y x.
Proof. unfold lef, le_impl, is_le. rewrite (cmp_swap x y). now destruct (cmp x y). Qed.

Lemma insert_hd x y l : lef y x -> HdRel lef y l -> HdRel lef y (insert x l).
Proof.
  intros L H. destruct H as [|z t H]; cbn; [now constructor|].
  destruct (is_gt (cmp x z)); now constructor.
Qed.

Lemma insert_sorted x l : Sorted lef l -> Sorted lef (insert x l).
Proof.
  induction 1 as [|y t S IH Hd]; cbn; [now repeat constructor|].
  destruct (is_gt (cmp x y)) eqn:G.
  - constructor; [exact IH|]. apply insert_hd; [now apply gt_le_swap|assumption].
  - repeat constructor; [assumption..|]. now apply not_gt_le.
Qed.

(** of every list: [lef] treats a NaN as equal to everything *)
Lemma sort_sorted_any l : Sorted lef (sort_impl l).
Proof. induction l as [|x t IH]; cbn; [constructor|]. now apply insert_sorted. Qed.

Lemma sort_finite l : fin_list l -> fin_list (sort_impl l).
Proof. apply Permutation_Forall. symmetry. apply sort_perm. Qed.

Lemma lef_lek a b : finite a = true -> finite b = true -> lef a b -> lek a b.
Proof.
  intros Ha Hb. unfold lef, le_impl, is_le, is_gt, lek. rewrite cmp_R by assumption.
  destruct (Rcompare_spec (key a) (key b)); intros HH; try discriminate; lra.
Qed.

Lemma sorted_lef_lek l : fin_list l -> Sorted lef l -> Sorted lek l.
Proof.
  intros F S. induction S as [|a l S IH Hd]; [constructor|].
  inversion F as [|? ? Ha Fl]; subst. constructor; [now apply IH|].
  destruct Hd as [|b l' Hab]; constructor. inversion Fl; subst. now apply lef_lek.
Qed.

(** * uniq: [uniq_by e (x :: t) = x :: uniq_aux e x t] *)

Lemma uniq_aux_sorted : forall l last, fin_list (last :: l) -> Sorted lek (last :: l) ->
  Sorted ltk (last :: uniq_aux eq_spec last l).
Proof.
  induction l as [|x t IH]; intros last F S; cbn [uniq_aux]; [now repeat constructor|].
  inversion F as [|? ? Hl F']; subst. inversion F' as [|? ? Hx _]; subst.
  inversion S as [|? ? S' Hd]; subst. inversion Hd as [|? ? Hlx]; subst.
  specialize (IH x F' S').
  destruct (eq_spec last x) eqn:E.
  - apply eq_spec_iff_R in E; try assumption.
    inversion IH as [|? ? IS IHd]; subst. constructor; [assumption|].
    destruct IHd; constructor. unfold ltk in *. now rewrite E.
  - constructor; [exact IH|]. constructor.
    assert (key last <> key x) by (intros K; apply eq_spec_iff_R in K; congruence).
    unfold ltk, lek in *. lra.
Qed.

Lemma uniq_sorted l : fin_list l -> Sorted lek l -> Sorted ltk (uniq_by eq_spec l).
Proof. intros F S. destruct l; [constructor|now apply uniq_aux_sorted]. Qed.

Lemma uniq_aux_incl (e : f64 -> f64 -> bool) : forall l last, incl (uniq_aux e last l) l.
Proof.
  induction l as [|x t IH]; intros last; cbn [uniq_aux]; [apply incl_refl|].
  destruct (e last x).
  - apply incl_tl, IH.
  - apply incl_cons; [now left|apply incl_tl, IH].
Qed.

Lemma uniq_incl e l : incl (uniq_by e l) l.
Proof.
  destruct l as [|x t]; [apply incl_refl|].
  apply incl_cons; [now left|apply incl_tl, uniq_aux_incl].
Qed.

(** uniq drops only elements whose real value stays represented *)
Lemma uniq_aux_existsb x : finite x = true -> forall l last, fin_list (last :: l) ->
  existsb (fun y => eq_spec y x) (last :: uniq_aux eq_spec last l) =
  existsb (fun y => eq_spec y x) (last :: l).
Proof.
  intros Hx. induction l as [|z t IH]; intros last F; [reflexivity|].
  inversion F as [|? ? Hl F']; subst. inversion F' as [|? ? Hz _]; subst.
  specialize (IH z F'). cbn [uniq_aux existsb] in *.
  destruct (eq_spec last z) eqn:E; cbn [existsb]; [|now rewrite IH].
  apply eq_spec_iff_R in E; try assumption.
  assert (P : eq_spec last x = eq_spec z x)
    by (unfold eq_spec; now rewrite !feq_R, E by assumption).
  now rewrite P, IH, orb_assoc, orb_diag.
Qed.

Lemma uniq_existsb x l : finite x = true -> fin_list l ->
  existsb (fun y => eq_spec y x) (uniq_by eq_spec l) = existsb (fun y => eq_spec y x) l.
Proof. intros Hx F. destruct l; [reflexivity|now apply uniq_aux_existsb]. Qed.

Lemma sort_existsb (p : f64 -> bool) l : existsb p (sort_impl l) = existsb p l.
Proof.
  apply eq_true_iff_eq. rewrite !existsb_exists.
  split; intros (y & I & E); exists y; (split; [now apply sort_in|assumption]).
Qed.

(** * std.setMember *)
Lemma ltk_trans : Relations_1.Transitive ltk.
Proof. intros a b c. unfold ltk. lra. Qed.

Lemma ssorted_nth l : StronglySorted ltk l -> forall i j a b, (i <= j)%nat ->
  nth_error l i = Some a -> nth_error l j = Some b -> lek a b.
Proof.
  induction 1 as [|x t S IH Hall]; intros i j a b Hij Ea Eb.
  - destruct i; discriminate.
  - destruct i as [|i], j as [|j]; cbn in Ea, Eb; try lia.
    + replace b with a by congruence. apply Rle_refl.
    + inversion Ea; subst. rewrite Forall_forall in Hall.
      apply Rlt_le, (Hall b). eapply nth_error_In; eassumption.
    + eapply IH; [|eassumption..]. lia.
Qed.

(** invariant: left of [low] is below [x], from [high] on above *)
Lemma bsearch_complete x l : finite x = true -> fin_list l -> StronglySorted ltk l ->
  forall fuel low high, (high <= length l)%nat -> (high - low < fuel)%nat ->
  (forall i y, (i < low)%nat -> nth_error l i = Some y -> ltk y x) ->
  (forall i y, (high <= i)%nat -> nth_error l i = Some y -> ltk x y) ->
  bsearch fuel x l low high = Some (existsb (fun y => eq_spec y x) l).
Proof.
  intros Hx F S. rewrite Forall_forall in F.
  induction fuel as [|f IH]; intros low high Hh Hf Hlow Hhigh; [lia|].
  cbn [bsearch].
  destruct (Nat.ltb_spec low high) as [Hlt|Hge].
  - set (mid := ((high + low) / 2)%nat).
    assert (Hm : (low <= mid < high)%nat)
      by (split; [apply Nat.div_le_lower_bound|apply Nat.div_lt_upper_bound]; lia).
    clearbody mid.
    destruct (nth_error l mid) as [c|] eqn:Ec; [|apply nth_error_None in Ec; lia].
    assert (Hc : finite c = true) by (apply F; eapply nth_error_In; eassumption).
    rewrite cmp_R by assumption.
    destruct (Rcompare_spec (key c) (key x)) as [Lt|Eq|Gt].
    + apply IH; try assumption; [lia|].
      intros i y Hi Ey.
      assert (lek y c) by (apply (ssorted_nth l S i mid); [lia|assumption..]).
      unfold ltk, lek in *. lra.
    + f_equal. symmetry. apply existsb_exists. exists c. split; [eapply nth_error_In; eassumption|].
      now apply eq_spec_iff_R.
    + apply IH; try assumption; [lia..|].
      intros i y Hi Ey.
      assert (lek c y) by (apply (ssorted_nth l S mid i); [lia|assumption..]).
      unfold ltk, lek in *. lra.
  - f_equal. symmetry. apply not_true_is_false. intros E.
    apply existsb_exists in E as (y & Iy & Ey).
    apply eq_spec_iff_R in Ey; [|now apply F|assumption].
    apply In_nth_error in Iy as (i & Ei). unfold ltk in *.
    destruct (Nat.lt_ge_cases i low) as [Hi|Hi].
    + specialize (Hlow i y Hi Ei). lra.
    + specialize (Hhigh i y ltac:(lia) Ei). lra.
Qed.

Lemma set_member_complete x l : finite x = true -> fin_list l -> Sorted ltk l ->
  set_member_impl x l = Some (member_spec x l).
Proof.
  intros Hx F S. apply bsearch_complete; try assumption.
  - apply Sorted_StronglySorted; [exact ltk_trans|assumption].
  - lia.
  - lia.
  - intros i y Hi. lia.
  - intros i y Hi Ey. apply nth_error_None in Hi. congruence.
Qed.

(** * std.set *)
Lemma set_is_spec l : uniq_impl l = uniq_spec l /\ set_impl l = set_spec l.
Proof. unfold set_impl, set_spec, uniq_impl, uniq_spec. now rewrite eq_impl_is_spec. Qed.

Lemma set_spec_sorted l : fin_list l -> Sorted ltk (set_spec l) /\ fin_list (set_spec l).
Proof.
  intros F. pose proof (sort_finite l F) as Fs. split.
  - apply uniq_sorted; [assumption|]. apply sorted_lef_lek; [assumption|apply sort_sorted_any].
  - exact (incl_Forall (uniq_incl eq_spec _) Fs).
Qed.

