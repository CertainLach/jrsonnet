(** C09 — non-vacuity: the hypotheses of the restricted theorems are satisfiable (values as bit
    patterns). *)
From Coq Require Import ZArith List.
From Flocq Require Import IEEE754.Bits.
From JrV Require Import C09.Model C09.Proofs.
Import ListNotations.
Open Scope Z_scope.

Definition x_third := b64_of_bits 4599676419421066581.  (* 1/3 *)
Definition x_big := b64_of_bits 9214871658872686752.    (* 1e308 *)
Definition x_5 := b64_of_bits 4617315517961601024.      (* 5 *)
Definition x_m7 := b64_of_bits 13842939354630062080.    (* -7 *)
Definition x_40 := b64_of_bits 4630826316843712512.     (* 40 *)

(* arithmetic: a finite result and an overflow both occur *)
Example nv_arith : finite x_third = true /\ finite x_big = true /\
  enc_num (add_impl x_third x_big) = 9214871658872686752 /\ enc_num (mul_impl x_big x_5) = -3 /\
  enc_num (div_impl x_5 x_third) = 4624633867356078080.
Proof. vm_compute. repeat split. Qed.
(* equality: both answers occur; 1e-20 / 2e-20 differ; +0 == -0 *)
Example nv_eq : eq_impl x_third x_5 = false /\ eq_impl x_5 x_5 = true /\
  eq_impl w_1e20 w_2e20 = false /\ lt_impl w_1e20 w_2e20 = true /\
  eq_impl f_zero (b64_of_bits 9223372036854775808) = true.
Proof. vm_compute. repeat split. Qed.
(* sort / set / setMember on a list with duplicates, near-equal values and both zeros *)
Example nv_set : let l := [x_5; w_2e20; x_m7; f_zero; x_5; w_1e20; b64_of_bits 9223372036854775808] in
  Forall (fun y => finite y = true) l /\
  map bits_of_b64 (set_impl l) = map bits_of_b64 [x_m7; f_zero; w_1e20; w_2e20; x_5] /\
  set_member_impl w_2e20 (set_impl l) = Some true /\
  set_member_impl x_third (set_impl l) = Some false.
Proof.
  (* as one evaluation: each bit pattern is decoded once *)
  intros l. rewrite Forall_forall, <- (forallb_forall (fun y => finite y)).
  vm_compute. repeat split.
Qed.
(* bitwise / shifts: safe operands, a successful and a rejected shift, negative base in range *)
Example nv_bits : safe x_5 = true /\ safe x_m7 = true /\ safe x_big = false /\
  enc_num (band_impl x_m7 x_5) = bits_of_b64 (of_Z 1) /\
  known_shl_neg x_m7 x_40 = false /\ enc_num (shl_impl x_m7 x_40) = bits_of_b64 (of_Z (-7 * 2 ^ 40)) /\
  known_shl_neg x_5 (of_Z 62) = false /\ enc_num (shl_impl x_5 (of_Z 62)) = -3 /\
  known_shr_count x_m7 x_5 = false /\ enc_num (shr_impl x_m7 x_5) = bits_of_b64 (of_Z (-1)) /\
  known_bnot x_m7 = false /\ enc_num (bnot_impl x_m7) = bits_of_b64 (of_Z 6).
Proof. vm_compute. repeat split. Qed.
(* `>>` and `~`: accepted and rejected operands both occur *)
Example nv_range : enc_num (shr_impl x_m7 x_big) = -3 /\ enc_num (bnot_impl x_big) = -3 /\
  enc_num (shr_impl x_big x_5) = -3.
Proof. vm_compute. repeat split. Qed.
