(** C09 — the property theorems.  Only C09_sort_sorted and C09_sort_permutation are closed:
    Flocq's operations carry proofs over the classical reals. *)
From Coq Require Import ZArith List Bool Reals Lia Permutation Sorted.
From Flocq Require Import IEEE754.Bits Core.
From JrV Require Import Gen.GenNum C09.Model C09.Proofs C09.ProofsSet.
Open Scope Z_scope.

(** + - * : the correctly rounded (nearest-even, binary64) real result when that is below 2^1024
    in magnitude, otherwise an error *)
Theorem C09_add_checked :
  forall a b, finite a = true -> finite b = true -> arith_checked Rplus add_impl a b.
Proof. exact add_checked. Qed.
Print Assumptions C09_add_checked.

Theorem C09_sub_checked :
  forall a b, finite a = true -> finite b = true -> arith_checked Rminus sub_impl a b.
Proof. exact sub_checked. Qed.
Print Assumptions C09_sub_checked.

Theorem C09_mul_checked :
  forall a b, finite a = true -> finite b = true -> arith_checked Rmult mul_impl a b.
Proof. exact mul_checked. Qed.
Print Assumptions C09_mul_checked.

(** division by +-0 is an error, otherwise as above *)
Theorem C09_div_checked :
  forall a b, finite a = true -> finite b = true ->
    if Req_bool (B2R64 b) 0 then div_impl a b = None else arith_checked Rdiv div_impl a b.
Proof. exact div_checked. Qed.
Print Assumptions C09_div_checked.

(** PARTIAL for `%`: only that modulo by +-0 is an error; the value of [fmod] is tied to the code
    by the correspondence alone. *)
Theorem C09_div_mod_by_zero_partial :
  forall a b, finite b = true -> B2R64 b = 0%R -> div_impl a b = None /\ mod_impl a b = None.
Proof.
  intros a b Hb Z. unfold div_impl, mod_impl. rewrite feq_zero_R by assumption.
  rewrite Req_bool_true by assumption. split; reflexivity.
Qed.
Print Assumptions C09_div_mod_by_zero_partial.

(** The operators and std.abs / max / min never return a NaN or an infinity. *)
Theorem C09_no_nonfinite_observable :
  forall a b r,
  add_impl a b = Some r \/ sub_impl a b = Some r \/ mul_impl a b = Some r \/ div_impl a b = Some r \/
  mod_impl a b = Some r \/ band_impl a b = Some r \/ bor_impl a b = Some r \/ bxor_impl a b = Some r \/
  shl_impl a b = Some r \/ shr_impl a b = Some r \/ neg_impl a = Some r \/ bnot_impl a = Some r \/
  abs_impl a = Some r \/ max_impl a b = Some r \/ min_impl a b = Some r ->
  finite r = true.
Proof.
  (* every branch of every operator is [None] or a [num_new] *)
  intros a b r H. repeat destruct H as [H|H];
    unfold add_impl, sub_impl, mul_impl, div_impl, mod_impl, band_impl, bor_impl, bxor_impl, bitop_impl,
      shl_impl, shr_impl, neg_impl, bnot_impl, abs_impl, max_impl, min_impl in H;
    repeat match type of H with
           | match ?x with _ => _ end = Some _ => destruct x; try discriminate
           end;
    exact (proj2 (num_new_inv _ _ H)).
Qed.
Print Assumptions C09_no_nonfinite_observable.

(** Exactly one of a<b, a==b, a>b ([primitive_equals], exact since ce0d2fe); <=, >=, the swapped
    comparison and != are the derived combinations. *)
Theorem C09_trichotomy :
  forall a b, finite a = true -> finite b = true ->
  exactly_one (lt_impl a b) (eq_impl a b) (gt_impl a b) /\
  le_impl a b = (lt_impl a b || eq_impl a b) /\
  ge_impl a b = (gt_impl a b || eq_impl a b) /\
  gt_impl a b = lt_impl b a /\
  eq_impl a b = eq_impl b a.
Proof. rewrite eq_impl_is_spec. exact trichotomy. Qed.
Print Assumptions C09_trichotomy.

(** the code's `==` on numbers is IEEE equality: equal real values, +0 == -0 ... *)
Theorem C09_eq_is_ieee :
  forall a b, finite a = true -> finite b = true ->
  eq_impl a b = eq_spec a b /\ (eq_impl a b = true <-> B2R64 a = B2R64 b).
Proof. intros a b Ha Hb. split; [now rewrite eq_impl_is_spec|now apply eq_impl_iff_R]. Qed.
Print Assumptions C09_eq_is_ieee.

(** ... hence an equivalence (not so under the epsilon comparison). *)
Theorem C09_eq_equivalence :
  (forall a, finite a = true -> eq_impl a a = true) /\
  (forall a b, finite a = true -> finite b = true -> eq_impl a b = true -> eq_impl b a = true) /\
  (forall a b c, finite a = true -> finite b = true -> finite c = true ->
     eq_impl a b = true -> eq_impl b c = true -> eq_impl a c = true).
Proof.
  repeat split.
  - intros a Ha. now apply eq_impl_iff_R.
  - intros a b Ha Hb H. apply eq_impl_iff_R in H; try assumption. now apply eq_impl_iff_R.
  - intros a b c Ha Hb Hc H1 H2. apply eq_impl_iff_R in H1, H2; try assumption.
    apply eq_impl_iff_R; congruence.
Qed.
Print Assumptions C09_eq_equivalence.

(** std.sort returns an ascending rearrangement. *)
Theorem C09_sort_sorted :
  forall l, Forall (fun y => finite y = true) l ->
  Sorted lef (sort_impl l) /\ Forall (fun y => finite y = true) (sort_impl l).
Proof. intros l F. split; [apply sort_sorted_any|now apply sort_finite]. Qed.
Print Assumptions C09_sort_sorted.

Theorem C09_sort_permutation : forall l, Permutation (sort_impl l) l.
Proof. exact sort_perm. Qed.
Print Assumptions C09_sort_permutation.

(** std.uniq / std.set are their IEEE-equality definitions ... *)
Theorem C09_set_is_spec :
  forall l, uniq_impl l = uniq_spec l /\ set_impl l = set_spec l.
Proof. exact set_is_spec. Qed.
Print Assumptions C09_set_is_spec.

(** ... std.set is strictly ascending, and std.setMember(x, std.set(l)) holds exactly when some
    element of l is == x. *)
Theorem C09_sort_set_coherent :
  forall l x, Forall (fun y => finite y = true) l -> finite x = true ->
  Sorted ltk (set_impl l) /\
  set_member_impl x (set_impl l) = Some (existsb (fun y => eq_impl y x) l).
Proof.
  intros l x F Hx. destruct (set_is_spec l) as [_ ->]. rewrite eq_impl_is_spec.
  destruct (set_spec_sorted l F) as [S Fs]. split; [assumption|].
  rewrite set_member_complete by assumption. unfold member_spec, set_spec, uniq_spec.
  rewrite uniq_existsb by (assumption || apply sort_finite, F).
  now rewrite sort_existsb.
Qed.
Print Assumptions C09_sort_set_coherent.

(** std.setMember's binary search decides == membership on every strictly ascending array. *)
Theorem C09_set_member_complete :
  forall x l, finite x = true -> Forall (fun y => finite y = true) l -> Sorted ltk l ->
  set_member_impl x l = Some (existsb (fun y => eq_spec y x) l).
Proof. exact set_member_complete. Qed.
Print Assumptions C09_set_member_complete.

(** & | ^ : error outside the safe-integer range, otherwise the operation on the integer values. *)
Theorem C09_bitwise_spec :
  forall f a b, finite a = true -> finite b = true -> bitop_impl f a b = bitop_spec f a b.
Proof.
  intros f a b Ha Hb. unfold bitop_impl, bitop_spec. rewrite !tfb_safe by assumption.
  destruct (safe a), (safe b); reflexivity.
Qed.
Print Assumptions C09_bitwise_spec.

(** an operand in the safe range has an integer value of at most 53 bits *)
Theorem C09_safe_integer_value :
  forall a, finite a = true -> safe a = true ->
  -9007199254740991 <= trunc_Z a <= 9007199254740991 /\ trunc_Z a = Ztrunc (B2R64 a).
Proof. intros a Ha S. split; [exact (safe_bounds a Ha S)|exact (trunc_Z_correct a)]. Qed.
Print Assumptions C09_safe_integer_value.

(** `<<`: succeeds iff count >= 0, both operands are safe and base * 2^(count mod 64) fits an i64,
    and is then that product — outside the known class (negative base, overflowing shift). *)
Theorem C09_shift_guard_exact :
  forall a b, finite a = true -> finite b = true ->
  known_shl_neg a b = false -> shl_impl a b = shl_spec a b.
Proof. intros a b Ha Hb K. now rewrite shl_cases, K. Qed.
Print Assumptions C09_shift_guard_exact.

(** (-2) << 63 evaluates to +0.0 (bit pattern 0) *)
Theorem C09_shift_guard_refuted :
  exists a b, finite a = true /\ finite b = true /\
  enc_num (shl_impl a b) = 0 /\ shl_spec a b = None /\ known_shl_neg a b = true.
Proof.
  exists (b64_of_bits 13835058055282163712 (* -2 *)), (b64_of_bits 4634063524449746944 (* 63 *)).
  vm_compute. repeat split.
Qed.
Print Assumptions C09_shift_guard_refuted.

(** `>>`: count >= 0, both operands in the safe range (8b733a9), arithmetic shift by count mod 64. *)
Theorem C09_shr_spec :
  forall a b, finite a = true -> finite b = true -> shr_impl a b = shr_spec a b.
Proof.
  (* [change] fails if the flag flips *)
  intros a b Ha Hb. unfold shr_impl, shr_spec. change shr_count_checked with true. cbv iota.
  rewrite !tfb_safe by assumption.
  destruct (flt b f_zero); cbn [negb].
  { now rewrite andb_false_r. }
  rewrite andb_true_r.
  destruct (safe b), (safe a); try reflexivity.
  unfold shr_count_mask. rewrite !land_63, Z.mod_mod by lia.
  rewrite Z.shiftr_div_pow2 by (apply Z.mod_pos_bound; lia). reflexivity.
Qed.
Print Assumptions C09_shr_spec.

(** `~`: error outside the safe range (8b733a9), otherwise -x-1 on the integer value. *)
Theorem C09_bitnot_range :
  forall a, finite a = true -> bnot_impl a = bnot_spec a.
Proof.
  intros a Ha. unfold bnot_impl, bnot_spec. change bitnot_checked with true. cbv iota.
  rewrite tfb_safe by assumption. destruct (safe a); [|reflexivity].
  unfold Z.lnot. now rewrite <- Z.sub_1_r.
Qed.
Print Assumptions C09_bitnot_range.
