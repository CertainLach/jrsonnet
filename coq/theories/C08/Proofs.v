(** C08 proofs: the transliterated [ArrayLike] implementations refine the list spec. *)
From Coq Require Import List ZArith NArith Lia Arith.
From JrV Require Import Gen.GenConsts C08.Model.
Import ListNotations.

(** *** list facts *)

Lemma nth_error_nil {A} (i : nat) : @nth_error A [] i = None.
Proof. destruct i; reflexivity. Qed.

Lemma nth_error_skipn {A} (l : list A) : forall n i,
  nth_error (skipn n l) i = nth_error l (n + i).
Proof.
  induction l as [|x xs IH]; intros n i.
  - rewrite skipn_nil, !nth_error_nil. reflexivity.
  - destruct n as [|n']; [reflexivity|]. cbn [skipn]. rewrite IH. reflexivity.
Qed.

Lemma nth_error_firstn_lt {A} (l : list A) : forall n i,
  (i < n)%nat -> nth_error (firstn n l) i = nth_error l i.
Proof.
  induction l as [|x xs IH]; intros n i Hi.
  - rewrite firstn_nil. reflexivity.
  - destruct n as [|n']; [lia|]. cbn [firstn]. destruct i as [|i']; [reflexivity|].
    cbn [nth_error]. apply IH. lia.
Qed.

Lemma skipn_cons_inv {A} (l : list A) : forall k x r,
  skipn k l = x :: r -> nth_error l k = Some x /\ skipn (S k) l = r.
Proof.
  induction l as [|y l IH]; intros [|k] x r H; try discriminate.
  - injection H as -> ->. split; reflexivity.
  - apply IH. exact H.
Qed.

(** the length is the first index at which [nth_error] finds nothing *)
Lemma length_unique {A} (l : list A) (n : N) :
  (forall i, nth_error l (N.to_nat i) = None <-> (n <= i)%N) -> N.of_nat (length l) = n.
Proof.
  intros H.
  assert (H1 : nth_error l (N.to_nat n) = None) by (apply H; lia).
  assert (H2 : nth_error l (N.to_nat (N.of_nat (length l))) = None) by (apply nth_error_None; lia).
  apply nth_error_None in H1. apply H in H2. lia.
Qed.

Lemma step_from_nil {A} st k : @step_from A st k [] = [].
Proof. reflexivity. Qed.

Lemma nth_error_step_from {A} (st : nat) (l : list A) :
  (0 < st)%nat ->
  forall k i, nth_error (step_from st k l) i = nth_error l (k + st * i).
Proof.
  intros Hst. induction l as [|x xs IH]; intros k i.
  - cbn [step_from]. now rewrite !nth_error_nil.
  - cbn [step_from]. destruct k as [|k'].
    + destruct i as [|i'].
      * rewrite Nat.mul_0_r. reflexivity.
      * cbn [nth_error]. rewrite IH, Nat.mul_succ_r.
        replace (0 + (st * i' + st))%nat with (S (st - 1 + st * i')) by lia.
        reflexivity.
    + rewrite IH. reflexivity.
Qed.

Lemma step_from_1 {A} (l : list A) : step_from 1 0 l = l.
Proof. induction l as [|x xs IH]; cbn [step_from Nat.sub]; [|rewrite IH]; reflexivity. Qed.

Lemma nth_error_rev {A} (l : list A) : forall i j,
  (i + j + 1 = length l)%nat -> nth_error (rev l) i = nth_error l j.
Proof.
  induction l as [|x l IH]; cbn [length rev]; intros i j H; [lia|].
  destruct j as [|j].
  - rewrite nth_error_app2; rewrite rev_length; [|lia].
    replace (i - length l)%nat with 0%nat by lia. reflexivity.
  - rewrite nth_error_app1 by (rewrite rev_length; lia). apply IH. lia.
Qed.

Lemma length_concat_repeat {A} (l : list A) (n : nat) :
  length (concat (repeat l n)) = (length l * n)%nat.
Proof.
  induction n as [|n IH]; cbn [repeat concat length].
  - lia.
  - rewrite app_length, IH. lia.
Qed.

Lemma nth_error_concat_repeat {A} (l : list A) (n i : nat) :
  (i < length l * n)%nat ->
  nth_error (concat (repeat l n)) i = nth_error l (i mod length l).
Proof.
  revert i. induction n as [|n IH]; intros i Hi; [lia|].
  cbn [repeat concat].
  destruct (Nat.lt_ge_cases i (length l)) as [H|H].
  - rewrite Nat.mod_small by exact H. apply nth_error_app1. exact H.
  - rewrite nth_error_app2, IH by lia. f_equal.
    replace i with ((i - length l) + 1 * length l)%nat at 2 by lia.
    symmetry. apply Nat.mod_add. lia.
Qed.

Lemma length_zseq s n : length (zseq s n) = n.
Proof. revert s; induction n as [|n IH]; intros s; cbn [zseq length]; [|rewrite IH]; reflexivity. Qed.

Lemma nth_error_zseq n : forall s i,
  nth_error (zseq s n) i = if (i <? n)%nat then Some (s + Z.of_nat i)%Z else None.
Proof.
  induction n as [|n IH]; intros s i.
  - cbn [zseq]. rewrite nth_error_nil. reflexivity.
  - cbn [zseq]. destruct i as [|i'].
    + cbn. f_equal. lia.
    + cbn [nth_error]. rewrite IH.
      change (S i' <? S n)%nat with (i' <? n)%nat.
      destruct (i' <? n)%nat; [f_equal; lia | reflexivity].
Qed.

Lemma length_mapi_from {A B} (f : N -> A -> B) l : forall i, length (mapi_from f i l) = length l.
Proof. induction l as [|x xs IH]; intros i; cbn [mapi_from length]; [|rewrite IH]; reflexivity. Qed.

Lemma nth_error_mapi_from {A B} (f : N -> A -> B) l : forall s i,
  nth_error (mapi_from f s l) i = option_map (f (s + N.of_nat i)%N) (nth_error l i).
Proof.
  induction l as [|x xs IH]; intros s i.
  - cbn [mapi_from]. rewrite !nth_error_nil. reflexivity.
  - cbn [mapi_from]. destruct i as [|i'].
    + cbn. rewrite N.add_0_r. reflexivity.
    + cbn [nth_error]. rewrite IH. do 2 f_equal. lia.
Qed.

Lemma mapi_from_const {A B} (g : A -> B) l : forall i, mapi_from (fun _ e => g e) i l = map g l.
Proof. induction l as [|x xs IH]; intros i; cbn [mapi_from map]; [|rewrite IH]; reflexivity. Qed.

Lemma div_ceil_le (a st i : N) :
  (0 < st)%N -> (div_ceil a st <= i <-> a <= st * i)%N.
Proof.
  intros Hst. unfold div_ceil. split; intros H.
  - assert (Hd := N.div_mod (a + st - 1) st ltac:(lia)).
    assert (Hm := N.mod_lt (a + st - 1) st ltac:(lia)).
    nia.
  - apply N.lt_succ_r. apply N.div_lt_upper_bound; [lia|]. nia.
Qed.

Lemma div_ceil_gt (a st i : N) :
  (0 < st)%N -> (i < div_ceil a st <-> st * i < a)%N.
Proof. intros Hst. rewrite !N.lt_nge, div_ceil_le by exact Hst. reflexivity. Qed.

Lemma ck_small n : (n < usize_lim)%N -> ck n = Some n.
Proof. intros H. unfold ck. destruct (N.ltb_spec n usize_lim); [reflexivity|lia]. Qed.

(** *** the main refinement *)

Definition refines (v : view) : Prop :=
  len_impl v = Some (N.of_nat (length (denote v))) /\
  forall i, get_impl v i = Some (nth_error (denote v) (N.to_nat i)).

(** after the bounds test of [get] only the indices below [n] are left to compare *)
Lemma get_checked {A} (l : list A) (n i : N) (r : option (option A)) :
  n = N.of_nat (length l) ->
  ((i < n)%N -> r = Some (nth_error l (N.to_nat i))) ->
  (if (n <=? i)%N then Some None else r) = Some (nth_error l (N.to_nat i)).
Proof.
  intros -> H. destruct (N.leb_spec (N.of_nat (length l)) i) as [Hi|Hi]; [|exact (H Hi)].
  f_equal. symmetry. apply nth_error_None. lia.
Qed.

Lemma length_slice inner from to step :
  (0 < step)%N -> (to <= N.of_nat (length (denote inner)))%N ->
  N.of_nat (length (denote (Slice inner from to step))) = div_ceil (to - from) step.
Proof.
  intros Hst Hto. apply length_unique. intros i. cbn [denote].
  rewrite nth_error_step_from, nth_error_None, firstn_length, skipn_length, div_ceil_le by lia.
  lia.
Qed.

Lemma nth_error_slice inner from to step i :
  (0 < step)%N -> (step * i < to - from)%N ->
  nth_error (denote (Slice inner from to step)) (N.to_nat i)
  = nth_error (denote inner) (N.to_nat (from + step * i)).
Proof.
  intros Hst Hi. cbn [denote].
  rewrite nth_error_step_from, nth_error_firstn_lt, nth_error_skipn by lia. f_equal. lia.
Qed.

Theorem wf_refines (v : view) : wf v -> refines v.
Proof.
  induction v as [l|inner IH from to step|inner IH|data IH n|a IHa b IHb|s e|f wi inner IH];
    cbn [wf]; intros H.
  - split; [reflexivity|]. intros i. cbn [get_impl denote]. f_equal.
    destruct (N.leb_spec (N.of_nat (length l)) i) as [Hi|Hi]; [|reflexivity].
    symmetry. apply nth_error_None. lia.
  - destruct H as (Hi & Hft & Hto & Hst). destruct (IH Hi) as [Hl Hg].
    assert (Hlen : len_impl (Slice inner from to step) = Some (div_ceil (to - from) step)).
    { cbn [len_impl]. destruct (N.ltb_spec to from); [lia|].
      destruct (N.eqb_spec step 0); [lia|]. reflexivity. }
    pose proof (length_slice inner from to step Hst Hto) as Hdl.
    split.
    + rewrite Hlen, Hdl. reflexivity.
    + intros i. cbn [get_impl]. rewrite Hlen. apply get_checked; [symmetry; exact Hdl|intros Hi'].
      rewrite Hg, nth_error_slice; [reflexivity|exact Hst|apply div_ceil_gt; assumption].
  - destruct (IH H) as [Hl Hg]. split; cbn [len_impl get_impl denote].
    + rewrite rev_length. exact Hl.
    + intros i. rewrite Hl. apply get_checked; [rewrite rev_length; reflexivity|intros Hi].
      rewrite Hg. f_equal. symmetry. apply nth_error_rev. lia.
  - destruct H as (Hd & Hfit). destruct (IH Hd) as [Hl Hg].
    assert (Hlen : len_impl (Rep data n) = Some (N.of_nat (length (denote data)) * n)%N).
    { cbn [len_impl]. rewrite Hl. apply ck_small. exact Hfit. }
    assert (Hdl : (N.of_nat (length (denote data)) * n)%N = N.of_nat (length (denote (Rep data n)))).
    { cbn [denote]. rewrite length_concat_repeat. lia. }
    split.
    + rewrite Hlen, Hdl. reflexivity.
    + intros i. cbn [get_impl]. rewrite Hlen, Hl. apply get_checked; [exact Hdl|intros Hi].
      destruct (N.eqb_spec (N.of_nat (length (denote data))) 0) as [Hz|Hz]; [nia|].
      rewrite Hg. f_equal. cbn [denote].
      rewrite nth_error_concat_repeat, N2Nat.inj_mod, Nat2N.id by lia. reflexivity.
  - destruct H as (Ha & Hb & Hfit). destruct (IHa Ha) as [Hla Hga]. destruct (IHb Hb) as [Hlb Hgb].
    split; cbn [len_impl get_impl denote].
    + rewrite Hla, Hlb, app_length, ck_small by exact Hfit. f_equal. lia.
    + intros i. rewrite Hla.
      destruct (N.ltb_spec i (N.of_nat (length (denote a)))) as [Hi|Hi].
      * rewrite Hga, nth_error_app1 by lia. reflexivity.
      * rewrite Hgb, nth_error_app2 by lia. do 2 f_equal. lia.
  - unfold i32_min, i32_max in H. split; cbn [len_impl get_impl denote].
    + rewrite map_length, length_zseq. f_equal.
      rewrite Z.mod_small by (change (Z.of_N usize_lim) with (2 ^ 64)%Z; lia). lia.
    + intros i. rewrite nth_error_map, nth_error_zseq.
      destruct (Z.leb_spec (s + Z.of_N i) e) as [Hi|Hi];
        destruct (Nat.ltb_spec (N.to_nat i) (Z.to_nat (e - s + 1))) as [Hi'|Hi']; try lia.
      * cbn [option_map]. do 3 f_equal. lia.
      * reflexivity.
  - destruct H as (Hi & Hwi). destruct (IH Hi) as [Hl Hg]. split; cbn [len_impl get_impl denote].
    + rewrite length_mapi_from. exact Hl.
    + intros i. rewrite Hl. apply get_checked; [rewrite length_mapi_from; reflexivity|intros Hi'].
      rewrite Hg, nth_error_mapi_from, N.add_0_l, N2Nat.id.
      destruct (nth_error (denote inner) (N.to_nat i)) as [x|] eqn:Hx.
      * destruct wi; [|reflexivity]. unfold as_u32.
        rewrite N.mod_small by (specialize (Hwi eq_refl); lia). reflexivity.
      * apply nth_error_None in Hx. lia.
Qed.

Lemma len_refines v : wf v -> len_impl v = Some (N.of_nat (length (denote v))).
Proof. intros H. apply wf_refines. exact H. Qed.

Lemma get_refines v i : wf v -> get_impl v i = Some (nth_error (denote v) (N.to_nat i)).
Proof. intros H. apply wf_refines. exact H. Qed.

Lemma wf_len_fits v : wf v -> (N.of_nat (length (denote v)) < usize_lim)%N.
Proof.
  induction v as [l|inner IH from to step|inner IH|data IH n|a IHa b IHb|s e|f wi inner IH];
    cbn [wf]; intros H.
  - exact H.
  - destruct H as (Hi & Hft & Hto & Hst). specialize (IH Hi).
    rewrite length_slice by assumption.
    assert (div_ceil (to - from) step <= to - from)%N by (apply div_ceil_le; [assumption|nia]).
    lia.
  - cbn [denote]. rewrite rev_length. auto.
  - destruct H as (Hd & Hfit). cbn [denote]. rewrite length_concat_repeat. lia.
  - destruct H as (Ha & Hb & Hfit). cbn [denote]. rewrite app_length. lia.
  - cbn [denote]. rewrite map_length, length_zseq. unfold i32_min, i32_max in H.
    change usize_lim with 18446744073709551616%N. lia.
  - destruct H as (Hi & _). cbn [denote]. rewrite length_mapi_from. auto.
Qed.

(** *** constructors *)

Definition yields (o : option view) (l : list elem) : Prop :=
  exists v, o = Some v /\ wf v /\ denote v = l.

Lemma yields_intro v l : wf v -> denote v = l -> yields (Some v) l.
Proof. intros W D. exists v. auto. Qed.

Lemma wf_empty : wf empty_view.
Proof. repeat split; discriminate. Qed.

Lemma slice_get_idx_norm pos (len : nat) (d : nat) :
  N.to_nat (slice_get_idx pos (N.of_nat len) (N.of_nat d)) = norm_pos pos len d.
Proof.
  unfold slice_get_idx, norm_pos. destruct pos as [z|]; [|lia].
  destruct (Z.ltb_spec z 0); lia.
Qed.

Lemma slice_get_idx_le pos len d : (d <= len)%N -> (slice_get_idx pos len d <= len)%N.
Proof.
  intros Hd. unfold slice_get_idx. destruct pos as [z|]; [|exact Hd].
  destruct (Z.ltb_spec z 0); lia.
Qed.

Theorem slice_ctor_spec v index end_ step :
  wf v ->
  (forall s, step = Some s -> (0 < s)%N) ->
  yields (slice_ctor v index end_ step) (slice_spec (denote v) index end_ step).
Proof.
  intros Hw Hstep. unfold slice_ctor, slice_spec. rewrite (len_refines v Hw).
  set (len := length (denote v)).
  rewrite <- (slice_get_idx_norm index len 0), <- (slice_get_idx_norm end_ len len).
  pose proof (slice_get_idx_le end_ (N.of_nat len) (N.of_nat len) (N.le_refl _)) as Hele.
  change (N.of_nat 0) with 0%N.
  set (i := slice_get_idx index (N.of_nat len) 0).
  set (e := slice_get_idx end_ (N.of_nat len) (N.of_nat len)) in *.
  destruct (N.leb_spec e i) as [Hei|Hei].
  - replace (N.to_nat e - N.to_nat i)%nat with 0%nat by lia.
    apply yields_intro; [apply wf_empty|reflexivity].
  - apply yields_intro.
    + cbn [wf]. repeat split; try assumption.
      destruct step as [s|]; [apply Hstep; reflexivity|reflexivity].
    + cbn [denote]. rewrite N2Nat.inj_sub. destruct step; reflexivity.
Qed.

Lemma collect_spec v : wf v -> forall r s,
  skipn (N.to_nat s) (denote v) = r -> collect v s (length r) = Some r.
Proof.
  intros Hw. induction r as [|x r IH]; intros s Hs; [reflexivity|].
  destruct (skipn_cons_inv _ _ _ _ Hs) as [Hx Hr].
  cbn [collect length]. rewrite (get_refines v s Hw), Hx, (IH (s + 1)%N); [reflexivity|].
  rewrite N2Nat.inj_add, Nat.add_1_r. exact Hr.
Qed.

Lemma to_vec_spec v : wf v -> to_vec v = Some (denote v).
Proof.
  intros Hw. unfold to_vec. rewrite (len_refines v Hw), Nat2N.id.
  apply (collect_spec v Hw (denote v) 0%N). reflexivity.
Qed.

Theorem extended_ctor_spec a b :
  wf a -> wf b ->
  (N.of_nat (length (denote a)) + N.of_nat (length (denote b)) < usize_lim)%N ->
  yields (extended_ctor a b) (denote a ++ denote b).
Proof.
  intros Ha Hb Hfit. unfold extended_ctor.
  rewrite (len_refines a Ha), (len_refines b Hb).
  destruct (N.eqb_spec (N.of_nat (length (denote a))) 0) as [Hza|Hza].
  { apply yields_intro; [exact Hb|].
    rewrite (proj1 (length_zero_iff_nil (denote a))) by lia. reflexivity. }
  destruct (N.eqb_spec (N.of_nat (length (denote b))) 0) as [Hzb|Hzb].
  { apply yields_intro; [exact Ha|].
    rewrite (proj1 (length_zero_iff_nil (denote b))) by lia. symmetry. apply app_nil_r. }
  rewrite ck_small by exact Hfit.
  destruct (arr_extend_threshold <? _)%N.
  - apply yields_intro; [|reflexivity]. cbn [wf]. auto.
  - rewrite (to_vec_spec a Ha), (to_vec_spec b Hb).
    apply yields_intro; [|reflexivity]. cbn [wf]. rewrite app_length. lia.
Qed.

Lemma repeated_ctor_spec data n :
  wf data ->
  repeated_ctor data n =
  if (N.of_nat (length (denote data)) * n <? usize_lim)%N then Some (Some (Rep data n)) else Some None.
Proof. intros Hw. unfold repeated_ctor. rewrite (len_refines data Hw). reflexivity. Qed.

Lemma std_range_spec from to :
  (i32_min <= from <= i32_max)%Z -> (i32_min <= to <= i32_max)%Z ->
  wf (std_range from to) /\
  denote (std_range from to) = map ENum (zseq from (Z.to_nat (to - from + 1))).
Proof.
  intros Hf Ht. unfold std_range. destruct (Z.ltb_spec to from) as [H|H].
  - split; [apply wf_empty|].
    replace (Z.to_nat (to - from + 1)) with 0%nat by lia. reflexivity.
  - split; [cbn [wf]; lia|reflexivity].
Qed.

Lemma range_exclusive_spec a b :
  (i32_min <= a <= i32_max)%Z -> (i32_min <= b <= i32_max)%Z -> (a <= b)%Z ->
  wf (range_exclusive a b) /\
  denote (range_exclusive a b) = map ENum (zseq a (Z.to_nat (b - a))).
Proof.
  intros Ha Hb Hab. unfold range_exclusive. destruct (Z.eqb_spec b i32_min) as [H|H].
  - split; [apply wf_empty|].
    replace (Z.to_nat (b - a)) with 0%nat by lia. reflexivity.
  - split; [cbn [wf]; lia|]. cbn [denote]. do 2 f_equal. lia.
Qed.

Lemma slice_spec_prefix {A} (l : list A) (n : Z) :
  (0 <= n)%Z -> slice_spec l None (Some n) None = firstn (Z.to_nat n) l.
Proof.
  intros Hn. unfold slice_spec, norm_pos. destruct (Z.ltb_spec n 0); [lia|].
  rewrite step_from_1, Nat.sub_0_r. cbn [skipn].
  destruct (Nat.min_spec (Z.to_nat n) (length l)) as [[_ ->]|[Hl ->]]; [reflexivity|].
  rewrite !firstn_all2; [reflexivity|exact Hl|reflexivity].
Qed.

Lemma slice_spec_suffix {A} (l : list A) (n : Z) :
  (0 <= n)%Z -> slice_spec l (Some n) None None = skipn (Z.to_nat n) l.
Proof.
  intros Hn. unfold slice_spec, norm_pos. destruct (Z.ltb_spec n 0); [lia|].
  rewrite step_from_1, firstn_all2 by (rewrite skipn_length; lia).
  destruct (Nat.min_spec (Z.to_nat n) (length l)) as [[_ ->]|[Hl ->]]; [reflexivity|].
  rewrite !skipn_all2; [reflexivity|exact Hl|reflexivity].
Qed.

Theorem remove_at_ctor_spec v at_ :
  wf v -> yields (remove_at_ctor v at_) (remove_at_spec (denote v) at_).
Proof.
  intros Hw. unfold remove_at_ctor, remove_at_spec. rewrite (len_refines v Hw).
  destruct (Z.ltb_spec at_ 0) as [Hneg|Hpos]; cbn [orb].
  { apply yields_intro; auto. }
  destruct (Z.leb_spec (Z.of_N (N.of_nat (length (denote v)))) at_) as [Hbig|Hin].
  { apply yields_intro; [exact Hw|].
    rewrite firstn_all2, skipn_all2, app_nil_r by lia. reflexivity. }
  destruct (slice_ctor_spec v None (Some at_) None Hw) as (l & -> & Wl & Dl); [discriminate|].
  destruct (slice_ctor_spec v (Some (at_ + 1)%Z) None None Hw) as (r & -> & Wr & Dr); [discriminate|].
  rewrite slice_spec_prefix in Dl by exact Hpos.
  rewrite slice_spec_suffix, Z2Nat.inj_add, Nat.add_1_r in Dr by lia.
  rewrite <- Dl, <- Dr. apply extended_ctor_spec; [exact Wl|exact Wr|].
  rewrite Dl, Dr, firstn_length, skipn_length. pose proof (wf_len_fits v Hw). lia.
Qed.

(** *** operation trees *)

(** [yields] for [build]'s three-valued result *)
Definition builds (r : bres) (l : list elem) : Prop :=
  exists v, r = BOk v /\ wf v /\ denote v = l.

Lemma builds_ok v l : wf v -> denote v = l -> builds (BOk v) l.
Proof. intros W D. exists v. auto. Qed.

Lemma builds_of_opt o l : yields o l -> builds (of_opt o) l.
Proof. intros (v & -> & W & D). apply builds_ok; assumption. Qed.

Lemma builds_bind r k l l' :
  builds r l -> (forall v, wf v -> denote v = l -> builds (k v) l') -> builds (bbind r k) l'.
Proof. intros (v & -> & W & D) H. exact (H v W D). Qed.

Theorem build_spec (o : op) : op_ok o -> builds (build o) (spec o).
Proof.
  induction o as [l|a IHa b IHb|a IHa i e st|a IHa|a IHa n|f t|n f|f a IHa|f a IHa|a IHa at_];
    cbn [op_ok build spec]; intros H.
  - apply builds_ok; [exact H|reflexivity].
  - destruct H as (Ha & Hb & Hfit).
    apply (builds_bind _ _ _ _ (IHa Ha)). intros va Wa Da.
    apply (builds_bind _ _ _ _ (IHb Hb)). intros vb Wb Db.
    apply builds_of_opt. rewrite <- Da, <- Db in *. apply extended_ctor_spec; assumption.
  - destruct H as (Ha & Hst).
    apply (builds_bind _ _ _ _ (IHa Ha)). intros va Wa Da.
    apply builds_of_opt. rewrite <- Da. apply slice_ctor_spec; assumption.
  - apply (builds_bind _ _ _ _ (IHa H)). intros va Wa Da.
    apply builds_ok; [exact Wa|]. cbn [denote]. rewrite Da. reflexivity.
  - destruct H as (Ha & Hfit).
    apply (builds_bind _ _ _ _ (IHa Ha)). intros va Wa Da.
    rewrite <- Da in *. rewrite (repeated_ctor_spec va n Wa).
    destruct (N.ltb_spec (N.of_nat (length (denote va)) * n) usize_lim) as [_|Hbad]; [|lia].
    apply builds_ok; [|reflexivity]. cbn [wf]. auto.
  - destruct H as (Hf & Ht). destruct (std_range_spec f t Hf Ht) as (W & D).
    apply builds_ok; assumption.
  - destruct (Z.eqb_spec n 0) as [->|Hn].
    + apply builds_ok; [apply wf_empty|reflexivity].
    + destruct (range_exclusive_spec 0 n) as (W & D); [unfold i32_min, i32_max in *; lia ..|].
      apply builds_ok.
      * cbn [wf]. split; [exact W|discriminate].
      * cbn [denote]. rewrite mapi_from_const, D, map_map, Z.sub_0_r. reflexivity.
  - apply (builds_bind _ _ _ _ (IHa H)). intros va Wa Da.
    apply builds_ok.
    + cbn [wf]. split; [exact Wa|discriminate].
    + cbn [denote]. rewrite mapi_from_const, Da. reflexivity.
  - destruct H as (Ha & Hlen).
    apply (builds_bind _ _ _ _ (IHa Ha)). intros va Wa Da.
    apply builds_ok.
    + cbn [wf]. split; [exact Wa|]. intros _. rewrite Da. exact Hlen.
    + cbn [denote]. rewrite Da. reflexivity.
  - destruct H as (Ha & _).
    apply (builds_bind _ _ _ _ (IHa Ha)). intros va Wa Da.
    apply builds_of_opt. rewrite <- Da. apply remove_at_ctor_spec. exact Wa.
Qed.

(** non-vacuity: a 4-deep composition meets every hypothesis *)
Example ops_example_ok :
  op_ok (ORev (OSlice (OCat (ORep (OLit [EId 0; EId 1]) 3) (OMapI 1 (ORange 0 4)))
                      (Some (-7)%Z) None (Some 2%N))).
Proof.
  cbn [op_ok spec]. unfold i32_min, i32_max, usize_lim, u32_lim.
  repeat split; try (vm_compute; congruence).
  intros s Hs. injection Hs as <-. reflexivity.
Qed.
