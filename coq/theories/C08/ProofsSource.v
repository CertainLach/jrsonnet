(** C08 — arithmetic behind PropertiesSource.v: the translator's primitives against the model's. *)
From Coq Require Import ZArith NArith Lia.
From JrV Require Import Gen.GenArr C08.Model C08.ModelSource.
Open Scope N_scope.

Lemma lim_eq : g_usize_lim = usize_lim.
Proof. reflexivity. Qed.

(** the preamble's `usize::div_ceil` is the model's [div_ceil] *)
Lemma div_ceil_eq (a b : N) :
  0 < b -> div_ceil a b = a / b + (if 0 <? a mod b then 1 else 0).
Proof.
  intros Hb. unfold div_ceil.
  assert (E : a = b * (a / b) + a mod b) by (apply N.div_mod; lia).
  assert (L : a mod b < b) by (apply N.mod_lt; lia).
  set (q := a / b) in *. set (r := a mod b) in *. clearbody q r.
  destruct (N.ltb_spec 0 r) as [H|H]; symmetry.
  - apply N.div_unique with (r := r - 1); lia.
  - apply N.div_unique with (r := b - 1); lia.
Qed.

Ltac unf :=
  unfold u_add, u_mul, u_sub, u_rem, u_div_ceil, u_wrapping_sub, u_wrapping_add, u_saturating_sub, u_min,
    u_checked_add, u_checked_mul, u_ge, u_gt, u_eq, i_ge, i_gt, i_eq, i_neg, i_checked_sub, i_as_usize,
    i_unsigned_abs, o_expect, o_unwrap_or, o_if, olift2, obind, g_ck, acc_if, adeleg, acc_at,
    interp, sub0, sub1, sub2.

(** the three accessors of a view are one text *)
Lemma slice_src_eq a : slice_src a = gen_slice_get.
Proof. destruct a; reflexivity. Qed.
Lemma rev_src_eq a : rev_src a = gen_rev_get.
Proof. destruct a; reflexivity. Qed.
Lemma rep_src_eq a : rep_src a = gen_rep_get.
Proof. destruct a; reflexivity. Qed.
Lemma ext_src_eq a : ext_src a = gen_ext_get.
Proof. destruct a; reflexivity. Qed.
Lemma range_src_eq a s e i : range_src a s e i = gen_range_get_cheap s e i.
Proof. destruct a; reflexivity. Qed.

Lemma src_slice_len inner from to step :
  len_impl (Slice inner from to step) = gen_slice_len from to step.
Proof.
  cbn [len_impl]. unfold gen_slice_len. unf.
  destruct (N.ltb_spec to from); [reflexivity|].
  destruct (N.eqb_spec step 0); [reflexivity|].
  rewrite div_ceil_eq by lia. reflexivity.
Qed.

(** `a.wrapping_sub(b)` modulo [L], read in Z *)
Lemma wrapping_sub_Z (L a b : N) :
  0 < L -> Z.of_N ((a + L - b mod L) mod L) = ((Z.of_N a - Z.of_N b) mod Z.of_N L)%Z.
Proof.
  intros HL.
  assert (b mod L <= a + L) by (apply N.lt_le_incl, N.lt_le_trans with L; [apply N.mod_lt|]; lia).
  rewrite N2Z.inj_mod, N2Z.inj_sub, N2Z.inj_add, N2Z.inj_mod by assumption.
  rewrite Zminus_mod_idemp_r.
  replace (Z.of_N a + Z.of_N L - Z.of_N b)%Z with (Z.of_N a - Z.of_N b + 1 * Z.of_N L)%Z by ring.
  apply Z_mod_plus_full.
Qed.

Lemma src_get_idx pos len default :
  pos_ok pos -> gen_slice_get_idx pos len default = Some (slice_get_idx pos len default).
Proof.
  unfold pos_ok, gen_slice_get_idx, slice_get_idx, i32_min, i32_max. intros H.
  destruct pos as [v|]; [|reflexivity]. unf.
  destruct (Z.ltb_spec v 0); f_equal.
  - lia.
  - rewrite Z.mod_small by (unfold g_usize_lim; lia). reflexivity.
Qed.

(** historical: the expression 4b122d6 replaced, `len.saturating_sub((-v) as usize)`, panicked at i32::MIN *)
Lemma old_slice_position_i32_min_negation_panicked len :
  u_saturating_sub (Some len) (i_as_usize (i_neg (Some i32_min))) = None.
Proof. reflexivity. Qed.

