(** C08 — the property theorems; the lemmas they rest on are in Proofs.v. *)
From Coq Require Import List ZArith NArith Lia.
From JrV Require Import C08.Model C08.Proofs.

(** For any nesting of views the length is the plain list's length ... *)
Theorem C08_len_refines :
  forall v, wf v -> len_impl v = Some (N.of_nat (length (denote v))).
Proof. exact len_refines. Qed.
Print Assumptions C08_len_refines.

(** ... and every index, in or out of bounds, answers as the plain list does. *)
Theorem C08_get_refines :
  forall v i, wf v -> get_impl v i = Some (nth_error (denote v) (N.to_nat i)).
Proof. exact get_refines. Qed.
Print Assumptions C08_get_refines.

Theorem C08_out_of_bounds_is_none :
  forall v i, wf v -> (N.of_nat (length (denote v)) <= i)%N -> get_impl v i = Some None.
Proof.
  intros v i Hw Hi. rewrite get_refines by exact Hw. f_equal. apply nth_error_None. lia.
Qed.
Print Assumptions C08_out_of_bounds_is_none.

Theorem C08_in_bounds_is_elem :
  forall v i, wf v -> (i < N.of_nat (length (denote v)))%N -> exists e, get_impl v i = Some (Some e).
Proof.
  intros v i Hw Hi. rewrite get_refines by exact Hw.
  destruct (nth_error (denote v) (N.to_nat i)) as [e|] eqn:He; [eauto|].
  apply nth_error_None in He. lia.
Qed.
Print Assumptions C08_in_bounds_is_elem.

(** Jsonnet slice semantics for every start / end / step and every array length. *)
Theorem C08_slice_ctor_spec :
  forall v index end_ step,
    wf v -> (forall s, step = Some s -> (0 < s)%N) ->
    exists v', slice_ctor v index end_ step = Some v' /\ wf v' /\
               denote v' = slice_spec (denote v) index end_ step.
Proof. exact slice_ctor_spec. Qed.
Print Assumptions C08_slice_ctor_spec.

(** Both branches of the concatenation threshold denote [a ++ b]. *)
Theorem C08_extended_threshold_invisible :
  forall a b, wf a -> wf b ->
    (N.of_nat (length (denote a)) + N.of_nat (length (denote b)) < usize_lim)%N ->
    exists v', extended_ctor a b = Some v' /\ wf v' /\ denote v' = denote a ++ denote b.
Proof. exact extended_ctor_spec. Qed.
Print Assumptions C08_extended_threshold_invisible.

Theorem C08_range_spec :
  forall from to, (i32_min <= from <= i32_max)%Z -> (i32_min <= to <= i32_max)%Z ->
    wf (std_range from to) /\
    denote (std_range from to) = map ENum (zseq from (Z.to_nat (to - from + 1))).
Proof. exact std_range_spec. Qed.
Print Assumptions C08_range_spec.

(** [at_]'s range is the builtin's argument type; the proof does not use it *)
Theorem C08_remove_at_spec :
  forall v at_, wf v -> (i32_min <= at_ <= i32_max)%Z ->
    exists v', remove_at_ctor v at_ = Some v' /\ wf v' /\ denote v' = remove_at_spec (denote v) at_.
Proof. exact (fun v at_ Hw _ => remove_at_ctor_spec v at_ Hw). Qed.
Print Assumptions C08_remove_at_spec.

(** Every composition of the array-producing operations, to any depth. *)
Theorem C08_ops_observe :
  forall o, op_ok o ->
    exists v, build o = BOk v /\
      len_impl v = Some (N.of_nat (length (spec o))) /\
      forall i, get_impl v i = Some (nth_error (spec o) (N.to_nat i)).
Proof.
  intros o H. destruct (build_spec o H) as (v & E & W & <-).
  exists v. split; [exact E|]. apply wf_refines. exact W.
Qed.
Print Assumptions C08_ops_observe.
